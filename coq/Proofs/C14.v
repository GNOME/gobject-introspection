From Coq Require Import List NArith ZArith Bool Lia.
From GIV.Lib Require Import Regex Str Facts.
From GIV.Gen Require Import HashSizes.
From GIV.Model Require Import C14.
Local Open Scope N_scope.

Theorem lookup_hashed_sound h table dir name i e :
  lookup_hashed h table dir name = Some (i, e) ->
  e.(d_name) = name /\ exists k, i = S k /\ nth_error dir k = Some e.
Proof.
  unfold lookup_hashed. set (idx := N.to_nat _).
  destruct (nth_error dir idx) as [e'|] eqn:En; [|discriminate].
  destruct (str_eqb_spec name (d_name e')) as [->|_]; [|discriminate]. intros [= <- <-].
  split; [reflexivity|]. exists idx. auto.
Qed.

Lemma lookup_linear_spec dir : forall name i,
  match lookup_linear dir name i with
  | Some (j, e) => exists k, j = (i + k)%nat /\ nth_error dir k = Some e /\ e.(d_name) = name /\
                             Forall (fun e' => e'.(d_name) <> name) (firstn k dir)
  | None => forall e, In e dir -> e.(d_name) <> name
  end.
Proof.
  induction dir as [|x t IH]; intros name i; simpl; [intros e []|].
  destruct (str_eqb_spec name (d_name x)) as [->|E].
  - exists O. repeat split; [lia|constructor].
  - specialize (IH name (S i)). destruct (lookup_linear t name (S i)) as [[j e]|].
    + destruct IH as (k & -> & Hn & Hname & Hfirst). exists (S k). repeat split; [lia|exact Hn|exact Hname|].
      constructor; [congruence|exact Hfirst].
    + intros e [<-|Hin]; [congruence|apply IH; exact Hin].
Qed.

Theorem lookup_linear_absent dir name i :
  (forall e, In e dir -> e.(d_name) <> name) -> lookup_linear dir name i = None.
Proof.
  intro H. pose proof (lookup_linear_spec dir name i) as Hs.
  destruct (lookup_linear dir name i) as [[j e]|]; [|reflexivity].
  destruct Hs as (k & _ & Hn & Hname & _). exfalso. exact (H e (nth_error_In _ _ Hn) Hname).
Qed.

Theorem lookup_hashed_absent h table dir name :
  (forall e, In e dir -> e.(d_name) <> name) -> lookup_hashed h table dir name = None.
Proof.
  intro H. destruct (lookup_hashed h table dir name) as [[i e]|] eqn:E; [|reflexivity].
  apply lookup_hashed_sound in E as (Hname & k & _ & Hn). exfalso.
  exact (H e (nth_error_In _ _ Hn) Hname).
Qed.

Lemma set_nth_same l : forall i v, (i < length l)%nat -> nth i (set_nth l i v) 0 = v.
Proof.
  induction l as [|x t IH]; intros i v H; simpl in *; [lia|].
  destruct i as [|i]; simpl; [reflexivity|apply IH; lia].
Qed.
Lemma set_nth_other l : forall i j v, i <> j -> nth j (set_nth l i v) 0 = nth j l 0.
Proof.
  induction l as [|x t IH]; intros [|i] [|j] v H; simpl; try reflexivity; try congruence. apply IH. congruence.
Qed.
Lemma set_nth_length l : forall i v, length (set_nth l i v) = length l.
Proof. induction l as [|x t IH]; intros [|i] v; simpl; auto. Qed.

Lemma fill_other h names : forall i tbl x,
  (forall s, In s names -> N.to_nat (h s) <> x) -> nth x (fill h names i tbl) 0 = nth x tbl 0.
Proof.
  induction names as [|s t IH]; intros i tbl x H; simpl; [reflexivity|].
  rewrite IH by (intros s' Hs'; apply H; right; exact Hs').
  apply set_nth_other. apply H. left; reflexivity.
Qed.

(* perfect-hash hypothesis: h is injective on the names and lands inside the table *)
Definition perfect (h : str -> N) (names : list str) : Prop :=
  NoDup (map h names) /\ forall s, In s names -> (N.to_nat (h s) < length names)%nat.

(* the slot of the k-th name holds its number: no later name has the same hash *)
Lemma fill_hit h names : forall i tbl k s,
  NoDup (map h names) -> (forall s', In s' names -> (N.to_nat (h s') < length tbl)%nat) ->
  nth_error names k = Some s -> nth (N.to_nat (h s)) (fill h names i tbl) 0 = i + N.of_nat k.
Proof.
  induction names as [|s0 t IH]; intros i tbl k s Hnd Hlt Hk; [destruct k; discriminate|].
  apply NoDup_cons_iff in Hnd as [Hnotin Hnd]. destruct k as [|k]; simpl in *.
  - injection Hk as <-. rewrite fill_other.
    + rewrite set_nth_same by auto. lia.
    + intros s' Hs' Heq. apply Hnotin, in_map_iff. exists s'. split; [lia|exact Hs'].
  - rewrite (IH (i + 1) _ k s Hnd); [lia| |exact Hk].
    intros s' Hs'. rewrite set_nth_length. auto.
Qed.

Lemma hash_index_build h names k s :
  perfect h names -> nth_error names k = Some s ->
  hash_index h (build_table h names) (N.of_nat (length names)) s = N.of_nat k.
Proof.
  intros [Hnd Hlt] Hk. unfold hash_index, build_table.
  pose proof (Hlt s (nth_error_In _ _ Hk)) as Hb.
  destruct (N.leb_spec (N.of_nat (length names)) (h s)); [lia|].
  rewrite (fill_hit h names 0 _ k s Hnd); [lia| |exact Hk]. rewrite repeat_length. exact Hlt.
Qed.

Theorem lookup_hashed_complete h dir k e :
  perfect h (map d_name dir) -> nth_error dir k = Some e ->
  lookup_hashed h (build_table h (map d_name dir)) dir e.(d_name) = Some (S k, e).
Proof.
  intros Hp Hk. unfold lookup_hashed.
  rewrite <- (map_length d_name dir), (hash_index_build h _ k _ Hp (map_nth_error d_name k dir Hk)), Nnat.Nat2N.id, Hk, str_eqb_refl.
  reflexivity.
Qed.

(* both paths agree on every probe (a perfect hash leaves no room for a name that occurs twice) *)
Theorem lookup_paths_agree h dir name :
  perfect h (map d_name dir) ->
  lookup_hashed h (build_table h (map d_name dir)) dir name = lookup_linear dir name 1.
Proof.
  intros Hp. pose proof (lookup_linear_spec dir name 1) as Hs.
  destruct (lookup_linear dir name 1) as [[j e]|].
  - destruct Hs as (k & -> & Hn & <- & _). apply (lookup_hashed_complete h dir k e Hp Hn).
  - apply lookup_hashed_absent. exact Hs.
Qed.

Lemma opt_is_true o s : opt_is o s = true <-> o = Some s.
Proof.
  destruct o as [x|]; simpl; [rewrite str_eqb_eq|]; split; congruence.
Qed.

(* the searches by GType name and by error domain are both a [find] for a flag and a key *)
Lemma find_keyed_spec (flag : dentry -> bool) (key : dentry -> option str) dir s :
  match find (fun e => flag e && opt_is (key e) s) dir with
  | Some e => In e dir /\ flag e = true /\ key e = Some s
  | None => forall e, In e dir -> flag e = true -> key e <> Some s
  end.
Proof.
  destruct (find _ dir) as [e|] eqn:E.
  - apply find_some in E as [Hin [Hf Hk%opt_is_true]%andb_true_iff]. auto.
  - intros e Hin Hf Hk. apply (find_none _ _ E) in Hin. apply opt_is_true in Hk. rewrite Hf, Hk in Hin. discriminate.
Qed.

Lemma lookup_gtype_find dir g : lookup_gtype dir g = find (fun e => d_registered e && opt_is (d_gtype_name e) g) dir.
Proof. induction dir as [|e t IH]; simpl; [|rewrite IH]; reflexivity. Qed.
Lemma lookup_domain_find dir d : lookup_domain dir d = find (fun e => d_is_enum e && opt_is (d_error_domain e) d) dir.
Proof. induction dir as [|e t IH]; simpl; [|rewrite IH]; reflexivity. Qed.

Theorem lookup_gtype_spec dir g :
  match lookup_gtype dir g with
  | Some e => In e dir /\ e.(d_registered) = true /\ e.(d_gtype_name) = Some g
  | None => forall e, In e dir -> e.(d_registered) = true -> e.(d_gtype_name) <> Some g
  end.
Proof. rewrite lookup_gtype_find. apply find_keyed_spec. Qed.

Definition has_gtype (l : tlib) (g : str) : Prop :=
  exists e, In e l.(t_dir) /\ e.(d_registered) = true /\ e.(d_gtype_name) = Some g.

(* a pass answers with an entry of one of the typelibs; the pass without the prefix filter misses nothing *)
Lemma find_pass_spec b libs g :
  match find_pass b libs g with
  | Some e => Exists (fun l => In e l.(t_dir) /\ e.(d_registered) = true /\ e.(d_gtype_name) = Some g) libs
  | None => b = false -> Forall (fun l => ~ has_gtype l g) libs
  end.
Proof.
  induction libs as [|l t IH]; simpl; [constructor|].
  pose proof (lookup_gtype_spec (t_dir l) g) as Hs.
  destruct (b && negb (matches_prefix (t_prefixes l) g)) eqn:Eb; [|destruct (lookup_gtype (t_dir l) g) as [e|]].
  - destruct (find_pass b t g); [right; exact IH|]. intros ->. discriminate Eb.
  - left. exact Hs.
  - destruct (find_pass b t g); [right; exact IH|]. intro Hb. constructor; [|exact (IH Hb)].
    intros (e & Hin & Hr & Hg). exact (Hs e Hin Hr Hg).
Qed.

(* the two-pass repository search finds a type iff some loaded typelib registers it, and what
   it returns carries that GType name -- however imprecise the prefix filter *)
Theorem find_by_gtype_spec libs g :
  match find_by_gtype libs g with
  | Some e => exists l, In l libs /\ In e l.(t_dir) /\ e.(d_registered) = true /\ e.(d_gtype_name) = Some g
  | None => forall l, In l libs -> ~ has_gtype l g
  end.
Proof.
  unfold find_by_gtype. pose proof (find_pass_spec true libs g) as H1. destruct (find_pass true libs g) as [e|].
  - apply Exists_exists, H1.
  - pose proof (find_pass_spec false libs g) as H2. destruct (find_pass false libs g) as [e|].
    + apply Exists_exists, H2.
    + apply Forall_forall, H2. reflexivity.
Qed.

Local Open Scope Z_scope.
Lemma align_value4 x : align_value x 4 = ((x + 3) / 4) * 4.
Proof. apply (land_lnot_pow2 (x + 3) 2). lia. Qed.
