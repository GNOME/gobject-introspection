From Coq Require Import List ZArith Lia.
From GIV.Lib Require Import Facts.
From GIV.Gen Require Import Align.
From GIV.Model Require Import C08.
Import ListNotations.
Local Open Scope Z_scope.

Definition align_up (n a : Z) : Z := ((n + a - 1) / a) * a.

Lemma align_up_ge n a : 0 < a -> n <= align_up n a.
Proof. unfold align_up. intros. Z.div_mod_to_equations. nia. Qed.
Lemma align_up_mult n a : 0 < a -> (align_up n a) mod a = 0.
Proof. intros. apply Z.mod_mul. lia. Qed.
Lemma align_up_least n a m : 0 < a -> n <= m -> m mod a = 0 -> align_up n a <= m.
Proof.
  unfold align_up. intros Ha Hn Hm. apply Z.mod_divide in Hm as [k ->]; [|lia].
  apply Z.mul_le_mono_nonneg_r; [lia|]. apply Z.lt_succ_r, Z.div_lt_upper_bound; lia.
Qed.

Definition pow2 (a : Z) : Prop := exists k, 0 <= k /\ a = 2 ^ k.
Lemma pow2_1 : pow2 1.
Proof. exists 0. split; [lia|reflexivity]. Qed.
Lemma pow2_pos a : pow2 a -> 0 < a.
Proof. intros (k & Hk & ->). apply Z.pow_pos_nonneg; lia. Qed.
Lemma gi_align_up n a : pow2 a -> gi_align n a = align_up n a.
Proof. intros (k & Hk & ->). exact (land_lnot_pow2 _ k Hk). Qed.

Lemma zmax_max a b : zmax a b = Z.max a b.
Proof. unfold zmax. destruct (Z.ltb_spec a b); lia. Qed.

(* the loop nested in [sa] is the standalone one, by definition *)
Lemma sa_union ms :
  sa (TUnion ms) = let '(size, align, err) := union_go ms 0 1 false in
                   if err then (-1, -1, false) else (gi_align size align, align, true).
Proof. reflexivity. Qed.

(* the ABI rule, declaratively, over the known members as (size, alignment) pairs *)
Definition known (m : member) (s a : Z) : Prop :=
  match m with MField t => sa t = (s, a, true) | MCallbackNode => False end.

Inductive all_known : list member -> list (Z * Z) -> Prop :=
| ak_nil : all_known [] []
| ak_cons m s a ms l : known m s a -> 0 <= s -> pow2 a -> all_known ms l -> all_known (m :: ms) ((s, a) :: l).

Fixpoint admissible (off : Z) (ms : list (Z * Z)) (os : list Z) : Prop :=
  match ms, os with
  | [], [] => True
  | (s, a) :: t, o :: os' => off <= o /\ o mod a = 0 /\ admissible (o + s) t os'
  | _, _ => False
  end.
Fixpoint le_list (a b : list Z) : Prop :=
  match a, b with
  | [], [] => True
  | x :: a', y :: b' => x <= y /\ le_list a' b'
  | _, _ => False
  end.
Fixpoint end_of (off : Z) (ms : list (Z * Z)) (os : list Z) : Z :=
  match ms, os with
  | (s, _) :: t, o :: os' => end_of (o + s) t os'
  | _, _ => off
  end.
Definition max_align (al : Z) (ms : list (Z * Z)) : Z := fold_left (fun m x => Z.max m (snd x)) ms al.

Lemma fold_max_ge {B} (g : B -> Z) l s : forall x, In x l -> g x <= fold_left (fun m x => Z.max m (g x)) l s.
Proof. apply Forall_forall. exact (fold_left_ub Z.le Z.max g Z.le_refl Z.max_lub_iff l s). Qed.

Lemma max_align_mem al l x : In x l -> snd x <= max_align al l.
Proof. apply (fold_max_ge snd). Qed.

Lemma max_align_pow2 al l : pow2 al -> Forall (fun m => pow2 (snd m)) l -> pow2 (max_align al l).
Proof.
  intros Hal Hl. rewrite Forall_forall in Hl. unfold max_align. apply fold_left_invariant; [|exact Hal].
  intros a x Hx Ha. apply Z.max_case; [exact Ha|exact (Hl x Hx)].
Qed.

Lemma all_known_pow2 ms l : all_known ms l -> Forall (fun m => pow2 (snd m)) l.
Proof. induction 1; constructor; assumption. Qed.

(* the offsets of the ABI rule: every member at the first multiple of its alignment that is free *)
Fixpoint greedy (off : Z) (l : list (Z * Z)) : list Z :=
  match l with
  | [] => []
  | (s, a) :: t => align_up off a :: greedy (align_up off a + s) t
  end.

Lemma struct_go_known ms l : all_known ms l -> forall size align,
  struct_go ms size align false = (greedy size l, end_of size l (greedy size l), max_align align l, false).
Proof.
  induction 1 as [|[t|] s a ms l Hk _ Ha _ IH]; intros size align; simpl; [reflexivity| |contradiction].
  simpl in Hk. rewrite Hk, (gi_align_up size a Ha), zmax_max, IH. reflexivity.
Qed.

Lemma greedy_admissible l : Forall (fun m => pow2 (snd m)) l -> forall off, admissible off l (greedy off l).
Proof.
  induction 1 as [|[s a] t Ha _ IH]; intro off; simpl; [exact I|]. apply pow2_pos in Ha.
  split; [apply align_up_ge; exact Ha|]. split; [apply align_up_mult; exact Ha|apply IH].
Qed.

(* ... and they are the least admissible ones, member by member, and end first *)
Lemma greedy_least l : Forall (fun m => pow2 (snd m)) l ->
  forall off off2 os2, off <= off2 -> admissible off2 l os2 ->
  le_list (greedy off l) os2 /\ end_of off l (greedy off l) <= end_of off2 l os2.
Proof.
  induction 1 as [|[s a] t Ha _ IH]; intros off off2 [|o os2] Hle Hadm; try contradiction; simpl.
  - split; [exact I|exact Hle].
  - destruct Hadm as (H1 & H2 & H3).
    assert (Hao : align_up off a <= o) by (apply align_up_least; [apply pow2_pos; exact Ha|lia|exact H2]).
    destruct (IH (align_up off a + s) (o + s) os2 ltac:(lia) H3) as [Hl He].
    split; [split; [exact Hao|exact Hl]|exact He].
Qed.

Lemma admissible_ge l : forall off os j oj, Forall (fun m => 0 <= fst m) l -> admissible off l os ->
  nth_error os j = Some oj -> off <= oj.
Proof.
  induction l as [|[s a] t IH]; intros off [|o os] [|j] oj Hf Hadm Hj; try contradiction; try discriminate Hj.
  - injection Hj as <-. apply Hadm.
  - destruct Hadm as (H1 & _ & H3). apply Forall_cons_iff in Hf as [Hs Hf]. simpl in Hs.
    specialize (IH _ _ _ _ Hf H3 Hj). lia.
Qed.

Lemma union_go_known ms l : all_known ms l -> forall size align,
  union_go ms size align false = (fold_left (fun m x => Z.max m (fst x)) l size, max_align align l, false).
Proof.
  induction 1 as [|[t|] s a ms l Hk _ _ _ IH]; intros size align; simpl; [reflexivity| |contradiction].
  simpl in Hk. rewrite Hk, !zmax_max, IH. reflexivity.
Qed.

Lemma struct_go_err ms : forall size align,
  let '(os, _, _, err) := struct_go ms size align true in err = true /\ Forall (fun o => o = -1) os.
Proof.
  induction ms as [|[t|] r IH]; intros size align; simpl; [split; [reflexivity|constructor]| |apply IH].
  specialize (IH size align). destruct (struct_go r size align true) as [[[o s] a] e].
  destruct IH as [-> Hf]. split; [reflexivity|constructor; [reflexivity|exact Hf]].
Qed.

Lemma struct_go_field t r size align err : exists x size' align' err',
  struct_go (MField t :: r) size align err =
  let '(o, s, a, e) := struct_go r size' align' err' in (x :: o, s, a, e).
Proof. simpl. destruct err; [|destruct (sa t) as [[s0 a0] [|]]]; repeat eexists. Qed.

Lemma struct_go_unknown t r size align err : snd (sa t) = false ->
  struct_go (MField t :: r) size align err = struct_go (MField t :: r) size align true.
Proof. simpl. destruct err; [reflexivity|]. destruct (sa t) as [[s0 a0] ok]. simpl. intros ->. reflexivity. Qed.

Lemma struct_go_unknown_after pre t post : snd (sa t) = false -> forall size align err,
  let '(os, _, _, e) := struct_go (pre ++ MField t :: post) size align err in
  e = true /\ Forall (fun o => o = -1)
                (skipn (length (filter (fun m => match m with MField _ => true | _ => false end) pre)) os).
Proof.
  intro Hu. induction pre as [|[t'|] r IH]; intros size align err; simpl app.
  - rewrite (struct_go_unknown t post size align err Hu). apply struct_go_err.
  - destruct (struct_go_field t' (r ++ MField t :: post) size align err) as (x & size' & align' & err' & ->).
    specialize (IH size' align' err'). destruct (struct_go (r ++ MField t :: post) size' align' err') as [[[o s] a] e].
    exact IH.
  - apply IH.
Qed.

(* the two folds of enum_storage bound the values *)
Lemma fold_zmax_ge l s : Forall (fun v => v <= fold_left (fun m v => if m <? v then v else m) l s) l.
Proof.
  apply (fold_left_ub Z.le zmax (fun v => v) Z.le_refl). intros a b z. rewrite zmax_max. apply Z.max_lub_iff.
Qed.
Lemma fold_zmin_le l s : Forall (fun v => fold_left (fun m v => if v <? m then v else m) l s <= v) l.
Proof.
  apply (fold_left_ub (fun a b => b <= a) (fun a b => if b <? a then b else a) (fun v => v)); [apply Z.le_refl|].
  intros a b z. destruct (Z.ltb_spec b a); lia.
Qed.
