From Coq Require Import List Arith Lia.
From GIV.Model Require Import C11.

(* C11 over Model/C11.v: what a run of the message logger counts and displays, and the numbering of the lines of a block. *)

Lemma fold_log_count ms : forall l, l_count (fold_left log ms l) = (l_count l + List.length ms)%nat.
Proof. induction ms as [|m t IH]; intros l; cbn; [lia|]. rewrite IH. cbn. lia. Qed.

Lemma fold_log_out_disabled ms : forall l, l_enabled l = false ->
  l_out (fold_left log ms l) = l_out l ++ filter (fun m => match fst (fst m) with KFatal => true | _ => false end) ms.
Proof.
  induction ms as [|m t IH]; intros l H; cbn; [rewrite app_nil_r; reflexivity|].
  rewrite IH by exact H. cbn. rewrite H. destruct (fst (fst m)); cbn; rewrite ?app_nil_r, <- ?app_assoc; reflexivity.
Qed.

Lemma number_lines_spec lines : forall first k x, nth_error lines k = Some x -> nth_error (number_lines first lines) k = Some ((first + k)%nat, x).
Proof.
  induction lines as [|y t IH]; intros first [|k] x H; try discriminate; cbn in *.
  - injection H as <-. rewrite Nat.add_0_r. reflexivity.
  - rewrite (IH (S first) k x H), Nat.add_succ_r. reflexivity.
Qed.
