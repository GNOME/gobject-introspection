From Coq Require Import List Bool Lia.
From GIV.Model Require Import C05.
Import ListNotations.

Fixpoint count (l : list bool) : nat := match l with [] => 0 | b :: t => (if b then 1 else 0) + count t end.

Lemma count_le_length l : count l <= length l.
Proof. induction l as [|b t IH]; cbn; [lia|]. destruct b; lia. Qed.

(* Termination and closure rest on one shape of statement: a piece of the pass either clears a
   flag, or changes nothing and then something is known of the flags. *)
Lemma set_nth_false_clears i : forall l,
  count (set_nth i false l) < count l \/ (set_nth i false l = l /\ nth i l false = false).
Proof.
  induction i as [|i IH]; intros [|b t]; cbn; try (right; split; reflexivity).
  - destruct b; [left; lia | right; split; reflexivity].
  - destruct (IH t) as [L | [E N]]; [left; lia | right; rewrite E; split; [reflexivity | exact N]].
Qed.

(* ... and a fold of such pieces is such a piece *)
Section FoldClears.
  Context {I : Type} (f : list bool -> I -> list bool) (P : list bool -> I -> Prop).
  Context (Hf : forall fl i, count (f fl i) < count fl \/ (f fl i = fl /\ P fl i)).

  Lemma fold_clears idxs : forall fl,
    count (fold_left f idxs fl) < count fl \/ (fold_left f idxs fl = fl /\ Forall (P fl) idxs).
  Proof.
    induction idxs as [|i t IH]; intros fl; cbn; [right; split; [reflexivity | constructor]|].
    destruct (Hf fl i) as [L | [E p]].
    - left. destruct (IH (f fl i)) as [L' | [E' _]]; [lia | rewrite E'; exact L].
    - rewrite E. destruct (IH fl) as [L' | [E' ps]]; [left; exact L' | right; split; [exact E' | constructor; assumption]].
  Qed.
End FoldClears.

(* node [i] is in order as far as a walk over the nodes selected by [which] is concerned. In both definitions the flags
   come last but one and what the fold runs over (a node, a kind of node) last: the shape of [P] in [fold_clears]. *)
Definition closed_at w which (fl : list bool) (i : nat) : Prop :=
  forall n, nth_error (nodes w) i = Some n -> which n = true -> nth i fl false = true ->
    forallb (type_ok w fl) (uses_of n) = true.
Definition closed_for w (fl : list bool) which : Prop := Forall (closed_at w which fl) (seq 0 (length (nodes w))).

Lemma closed_for_at w fl which i : closed_for w fl which -> closed_at w which fl i.
Proof.
  intros C n Hn. unfold closed_for in C. rewrite Forall_forall in C. apply (C i); [|exact Hn].
  apply in_seq. split; [lia|]. apply nth_error_Some. congruence.
Qed.

Lemma step_clears w which fl i :
  count (step w which fl i) < count fl \/ (step w which fl i = fl /\ closed_at w which fl i).
Proof.
  unfold step. destruct (check w which fl i) eqn:C.
  - right. split; [reflexivity|]. intros n Hn Hk _. unfold check in C. rewrite Hn, Hk in C. exact C.
  - destruct (set_nth_false_clears i fl) as [L | [E N]]; [left; exact L | right; split; [exact E|]].
    intros n _ _ Hf. congruence.
Qed.

Lemma walk_clears w fl which : count (walk w which fl) < count fl \/ (walk w which fl = fl /\ closed_for w fl which).
Proof. apply fold_clears, step_clears. Qed.

(* a round is the fold of [walk] over the two kinds of node *)
Lemma round_clears w fl :
  count (round w fl) < count fl \/ (round w fl = fl /\ Forall (closed_for w fl) [is_alias; is_callable]).
Proof. exact (fold_clears (fun fl which => walk w which fl) _ (walk_clears w) [is_alias; is_callable] fl). Qed.

Lemma iter_fix k w fl : round w fl = fl -> iter k w fl = fl.
Proof. induction k as [|k IH]; intros H; [reflexivity|]. cbn. rewrite H. apply IH. exact H. Qed.

Lemma iter_reaches_fixpoint k : forall w fl, count fl <= k -> round w (iter k w fl) = iter k w fl.
Proof.
  induction k as [|k IH]; intros w fl H; cbn; destruct (round_clears w fl) as [L | [E _]].
  - lia.
  - exact E.
  - apply IH. lia.
  - rewrite E, iter_fix; exact E.
Qed.

Lemma pass_is_fixpoint w : round w (pass w) = pass w.
Proof.
  apply iter_reaches_fixpoint. etransitivity; [apply count_le_length|].
  unfold apply_own, all_true. rewrite map_length, combine_length, map_length. lia.
Qed.

(* a state that no round changes is closed: whatever is left introspectable refers only to introspectable things *)
Lemma fixpoint_closed w fl : round w fl = fl -> closed w fl.
Proof.
  intros H. destruct (round_clears w fl) as [L | [_ S]]; [rewrite H in L; lia|].
  apply Forall_cons_iff in S as [SA S]. apply Forall_cons_iff in S as [SC _].
  intros i n Hn Hs Hk. apply andb_true_iff in Hs as [Hf _].
  destruct Hk as [Hk | Hk]; [apply (closed_for_at w fl is_alias i) | apply (closed_for_at w fl is_callable i)]; assumption.
Qed.

(* flags only ever go from introspectable to not introspectable *)
Lemma nth_set_nth_false i : forall l j, nth j (set_nth i false l) false = true -> nth j l false = true.
Proof.
  induction i as [|i IH]; intros [|b t] j H; cbn in *; try exact H.
  - destruct j; [discriminate|exact H].
  - destruct j; [exact H|]. apply IH. exact H.
Qed.
Lemma step_decreasing w which fl i j : nth j (step w which fl i) false = true -> nth j fl false = true.
Proof. unfold step. destruct (check w which fl i); [auto|]. apply nth_set_nth_false. Qed.

(* the pass as found is not closed: an alias chain declared use-before-definition, and a chain of
   three callback types *)
Definition alias_chain : world :=
  {| nodes := [NAlias (TNode 1); NAlias TBad]; skipped := [false; false] |}.
Definition callback_chain : world :=
  {| nodes := [NCallable true [TNode 1]; NCallable true [TNode 2]; NCallable true [TBad]]; skipped := [false; false; false] |}.

Example repaired_on_witnesses : pass alias_chain = [false; false] /\ pass callback_chain = [false; false; false].
Proof. vm_compute. split; reflexivity. Qed.
