From Coq Require Import List Arith NArith Bool Lia.
From GIV.Lib Require Import Regex Str Facts.
From GIV.Gen Require Import AnnNames.
From GIV.Model Require Import C10.
From GIV.Proofs Require Import C10Str.
Import ListNotations.
Local Open Scope N_scope.

(* Reading back what the writer of annotation fields lays out.  The character loop is followed over runs of blanks and
   over groups without parentheses of their own, which gives the groups of any such layout (parse_groups_prefix); a
   serialized list of annotations is one such layout (serialize_as_render), each body is read back as its annotation
   (list_annotation_roundtrip), and distinct names fill the ordered dictionary in the order written (fold_fresh). *)

Definition plain (c : N) : bool := negb (N.eqb c lpar) && negb (N.eqb c rpar).      (* not a parenthesis *)
Definition solid (c : N) : bool := plain c && negb (is_space c).                    (* neither parenthesis nor blank *)

Lemma plain_inv c : plain c = true -> N.eqb c lpar = false /\ N.eqb c rpar = false.
Proof. unfold plain. rewrite andb_true_iff, !negb_true_iff. trivial. Qed.

Lemma solid_inv c : solid c = true -> plain c = true /\ is_space c = false.
Proof. unfold solid. rewrite andb_true_iff, negb_true_iff. trivial. Qed.

Lemma space_plain c : is_space c = true -> plain c = true.
Proof.
  intros H. unfold plain.
  destruct (N.eqb_spec c lpar) as [->|_]; [vm_compute in H; discriminate|].
  destruct (N.eqb_spec c rpar) as [->|_]; [vm_compute in H; discriminate|]. reflexivity.
Qed.

Lemma not_space_sp c : is_space c = false -> N.eqb c sp = false.
Proof. intros H. destruct (N.eqb_spec c sp) as [->|_]; [rewrite space_is_space in H; discriminate | reflexivity]. Qed.

(* the test pstep makes of the previous character; it fails on "((" and "()" *)
Definition prev_lpar (prev : option N) : bool := match prev with Some p => N.eqb p lpar | None => false end.

(* the characters the loop passes over at depth l: blanks outside the groups, anything but a parenthesis inside one *)
Definition passes (l : nat) (c : N) : bool := match l with O => is_space c | S _ => plain c end.

Lemma passes_plain l c : passes l c = true -> plain c = true.
Proof. destruct l; [apply space_plain | trivial]. Qed.

Lemma pstep_pass l buf prev s e g i c : passes l c = true ->
  pstep (Build_pstate l buf prev s e g) i c
  = PGo (Build_pstate l (match l with O => buf | S _ => c :: buf end) (Some c) s e g).
Proof.
  intros H. destruct (plain_inv c (passes_plain l c H)) as [Hl Hr]. unfold pstep. rewrite Hl, Hr.
  cbn [ps_level ps_buf ps_prev ps_start ps_end ps_groups].
  destruct l; [cbn [passes] in H; rewrite H | destruct (is_space c)]; reflexivity.
Qed.

Lemma pstep_open buf prev s e g i : prev_lpar prev = false ->
  pstep (Build_pstate 0 buf prev s e g) i lpar = PGo (Build_pstate 1 buf (Some lpar) i e g).
Proof. intros H. unfold pstep. rewrite N.eqb_refl. cbn [ps_prev]. fold (prev_lpar prev). rewrite H. reflexivity. Qed.

Lemma pstep_close buf prev s e g i : prev_lpar prev = false ->
  pstep (Build_pstate 1 buf prev s e g) i rpar = PGo (Build_pstate 0 [] (Some rpar) s (S i) (g ++ [strip (rev buf)])).
Proof.
  intros H. unfold pstep. rewrite N.eqb_refl. change (N.eqb rpar lpar) with false.
  cbn [ps_prev]. fold (prev_lpar prev). rewrite H. reflexivity.
Qed.

Lemma pstep_break buf prev s e g i c : solid c = true ->
  pstep (Build_pstate 0 buf prev s e g) i c = PBreak (Build_pstate 0 buf prev s e g).
Proof.
  intros H. apply solid_inv in H as [Hp Hs]. apply plain_inv in Hp as [Hl Hr]. unfold pstep. rewrite Hl, Hr, Hs. reflexivity.
Qed.

Lemma ploop_pass x : forall rest i l buf prev s e g, forallb (passes l) x = true ->
  exists prev',
    ploop (x ++ rest) i (Build_pstate l buf prev s e g)
    = ploop rest (i + length x) (Build_pstate l (match l with O => buf | S _ => rev x ++ buf end) prev' s e g)
    /\ prev_lpar prev' = match x with [] => prev_lpar prev | _ => false end.
Proof.
  induction x as [|c t IH]; intros rest i l buf prev s e g H.
  - exists prev. cbn. rewrite Nat.add_0_r. destruct l; split; reflexivity.
  - cbn [forallb] in H. apply andb_true_iff in H as [Hc Ht].
    destruct (IH rest (S i) l (match l with O => buf | S _ => c :: buf end) (Some c) s e g Ht) as (prev' & E & P).
    exists prev'. cbn [app ploop length rev].
    rewrite (pstep_pass l buf prev s e g i c Hc), E, Nat.add_succ_r, <- app_assoc, P.
    split; [destruct l; reflexivity|]. destruct t; [apply plain_inv, (passes_plain l), Hc | reflexivity].
Qed.

(* one group "(body)" read from outside: its stripped body is appended to the groups *)
Lemma ploop_group body rest i prev s e g :
  forallb plain body = true -> body <> [] -> prev_lpar prev = false ->
  ploop (lpar :: body ++ rpar :: rest) i (Build_pstate 0 [] prev s e g)
  = ploop rest (i + S (S (length body))) (Build_pstate 0 [] (Some rpar) i (i + S (S (length body))) (g ++ [strip body])).
Proof.
  intros Hp Hne Hprev. cbn [ploop]. rewrite pstep_open by exact Hprev.
  destruct (ploop_pass body (rpar :: rest) (S i) 1 [] (Some lpar) i e g Hp) as (prev' & -> & P).
  destruct body as [|c t]; [contradiction|]. cbn [ploop]. rewrite pstep_close by exact P.
  rewrite app_nil_r, rev_involutive, !Nat.add_succ_r. reflexivity.
Qed.

(* items: (blanks before the group, body of the group) *)
Definition render_groups (items : list (str * str)) : str :=
  flat_map (fun wb => fst wb ++ lpar :: snd wb ++ [rpar]) items.

Lemma render_groups_cons w b t : render_groups ((w, b) :: t) = w ++ [lpar] ++ b ++ [rpar] ++ render_groups t.
Proof. cbn [render_groups flat_map fst snd]. rewrite <- app_assoc, <- app_comm_cons, <- app_assoc. reflexivity. Qed.

Definition item_ok (wb : str * str) : Prop :=
  forallb is_space (fst wb) = true /\ forallb plain (snd wb) = true /\ snd wb <> [].

Lemma ploop_groups items : forall rest i prev s e g,
  Forall item_ok items -> prev_lpar prev = false ->
  exists s',
    ploop (render_groups items ++ rest) i (Build_pstate 0 [] prev s e g)
    = ploop rest (i + length (render_groups items))
            (Build_pstate 0 [] (match items with [] => prev | _ => Some rpar end) s'
                          (match items with [] => e | _ => i + length (render_groups items) end)
                          (g ++ map (fun wb => strip (snd wb)) items)).
Proof.
  induction items as [|[w b] t IH]; intros rest i prev s e g H Hprev.
  - exists s. cbn. rewrite Nat.add_0_r, app_nil_r. reflexivity.
  - apply Forall_cons_iff in H as [(Hw & Hb & Hne) Ht]. cbn [fst snd] in Hw, Hb, Hne.
    assert (L : (i + length (render_groups ((w, b) :: t))
                 = i + length w + S (S (length b)) + length (render_groups t))%nat).
    { rewrite render_groups_cons, !app_length. cbn [length]. lia. }
    rewrite L, render_groups_cons, <- !app_assoc. cbn [app map snd].
    edestruct (ploop_pass w) as (p1 & -> & P1); [exact Hw|].
    rewrite (ploop_group b _ _ p1 s e g Hb Hne) by (rewrite P1; destruct w; [exact Hprev | reflexivity]).
    edestruct (IH rest) as (s2 & ->); [exact Ht | reflexivity |].
    exists s2. rewrite <- app_assoc. destruct t; [rewrite Nat.add_0_r|]; reflexivity.
Qed.

(* layout independence of the annotation field: whatever blanks stand before, between and after the parenthesised
   groups, the groups recovered are the stripped bodies, in order; the annotation part ends behind the last group,
   where the field ends or at a character that is neither blank nor parenthesis *)
Theorem parse_groups_prefix items ws rest :
  Forall item_ok items -> forallb is_space ws = true -> match rest with [] => True | c :: _ => solid c = true end ->
  parse_groups (render_groups items ++ ws ++ rest)
  = GOk (map (fun wb => strip (snd wb)) items) (length (render_groups items)).
Proof.
  intros H Hw Hr. unfold parse_groups, ps0.
  destruct (ploop_groups items (ws ++ rest) 0 None 0%nat 0%nat [] H eq_refl) as (s1 & ->).
  edestruct (ploop_pass ws rest) as (p' & -> & _); [exact Hw|].
  destruct rest as [|c rest]; cbn [ploop]; [destruct items; reflexivity|].
  rewrite pstep_break by exact Hr. destruct items; reflexivity.
Qed.

Definition nosp (x : str) : bool := forallb (fun c => negb (N.eqb c sp)) x.

(* the characters allowed in an option: no blank, no parenthesis, none of = < > (opt_ok and name_char write this test out) *)
Definition opt_char (c : N) : bool := solid c && negb (N.eqb c 61) && negb (N.eqb c 60) && negb (N.eqb c 62).

Definition opt_ok (o : str) : bool := negb (match o with [] => true | _ => false end) && forallb (fun c => solid c && negb (N.eqb c 61) && negb (N.eqb c 60) && negb (N.eqb c 62)) o.

Lemma opt_char_inv c : opt_char c = true ->
  plain c = true /\ is_space c = false /\ N.eqb c sp = false /\ N.eqb c 61 = false /\ N.eqb c 60 = false /\ N.eqb c 62 = false.
Proof.
  unfold opt_char. rewrite !andb_true_iff, !negb_true_iff. intros [[[Hs H61] H60] H62].
  apply solid_inv in Hs as [Hp Hs]. repeat split; try assumption. apply not_space_sp, Hs.
Qed.

Lemma opt_ok_iff o : opt_ok o = true <-> o <> [] /\ Forall (fun c => opt_char c = true) o.
Proof.
  unfold opt_ok. rewrite andb_true_iff, negb_true_iff, forallb_Forall.
  apply and_iff_compat_r. destruct o; split; congruence.
Qed.

Lemma opt_ok_chars (P : N -> Prop) o : (forall c, opt_char c = true -> P c) -> opt_ok o = true -> Forall P o.
Proof. intros HP H. apply opt_ok_iff in H as [_ H]. exact (Forall_impl P HP H). Qed.

Lemma join_sp_chars (P : N -> Prop) opts : P sp -> (forall c, opt_char c = true -> P c) ->
  Forall (fun o => opt_ok o = true) opts -> Forall P (join_sp opts).
Proof.
  intros Hsp HP H. destruct opts as [|o t]; [constructor|]. apply Forall_cons_iff in H as [Ho Ht].
  rewrite join_sp_cons. apply Forall_app. split; [exact (opt_ok_chars P o HP Ho)|].
  apply Forall_flat_map. eapply Forall_impl; [|exact Ht].
  intros w Hw. constructor; [exact Hsp | exact (opt_ok_chars P w HP Hw)].
Qed.

Lemma opt_nosp o : opt_ok o = true -> nosp o = true.
Proof.
  intros H. apply forallb_Forall, (opt_ok_chars _ o); [|exact H].
  intros c Hc. apply opt_char_inv in Hc as (_ & _ & -> & _). reflexivity.
Qed.

Lemma opt_trimmed o : opt_ok o = true -> trimmed o.
Proof.
  intros H. apply trimmed_no_blank; [apply opt_ok_iff, H|]. apply opt_ok_chars; [|exact H].
  intros c Hc. apply opt_char_inv in Hc. apply Hc.
Qed.

Lemma parse_options_list_some x : x <> [] ->
  parse_options_list (Some x) = if existsb (N.eqb 61) x then ([strip x], true) else (split_sp x [], false).
Proof. destruct x; [congruence | reflexivity]. Qed.

Theorem options_list_roundtrip opts :
  Forall (fun o => opt_ok o = true) opts -> parse_options_list (Some (join_sp opts)) = (opts, false).
Proof.
  intros H. destruct opts as [|o t]; [reflexivity|].
  rewrite parse_options_list_some by (apply join_sp_nonempty, opt_ok_iff, (Forall_inv H)).
  rewrite existsb_false, split_sp_join; [reflexivity | exact (Forall_impl _ opt_nosp H) |].
  apply join_sp_chars; [reflexivity | | exact H].
  intros c Hc. apply opt_char_inv in Hc. rewrite N.eqb_sym. apply Hc.
Qed.

Definition name_char (c : N) : bool :=
  solid c && negb (N.eqb c 61) && negb (N.eqb c 60) && negb (N.eqb c 62) && N.eqb (ascii_lower c) c.
Definition list_name_ok (n : str) : Prop :=
  n <> [] /\ forallb name_char n = true /\ existsb (str_eqb n) dict_annotations = false /\ existsb (str_eqb n) list_annotations = true.

Definition body_of (n : str) (opts : list str) : str := match opts with [] => n | _ => n ++ sp :: join_sp opts end.

Lemma body_of_join n opts : body_of n opts = join_sp (n :: opts).
Proof. destruct opts; reflexivity. Qed.

Lemma name_char_inv c : name_char c = true -> opt_char c = true /\ ascii_lower c = c.
Proof. unfold name_char, opt_char. rewrite andb_true_iff, N.eqb_eq. trivial. Qed.

(* a name is made like an option (so the body of an annotation is its name and its options joined), of characters
   that are their own lower case *)
Lemma name_ok_inv n : list_name_ok n -> opt_ok n = true /\ map ascii_lower n = n.
Proof.
  intros (Hne & Hn & _). rewrite forallb_Forall in Hn.
  apply (Forall_impl _ name_char_inv), Forall_and_inv in Hn as [Ho Hl].
  split; [apply opt_ok_iff; split; assumption | exact (map_id_on _ _ Hl)].
Qed.

Theorem list_annotation_roundtrip n opts :
  list_name_ok n -> Forall (fun o => opt_ok o = true) opts ->
  parse_annotation (body_of n opts) = (n, AList opts, false).
Proof.
  intros Hn Ho. destruct (name_ok_inv n Hn) as [Hw Hlow]. destruct Hn as (_ & _ & Hd & Hl).
  unfold parse_annotation. rewrite body_of_join, map_id_on.
  2:{ apply join_sp_chars; [reflexivity | | constructor; assumption].
      intros c Hc. apply opt_char_inv in Hc as (_ & _ & _ & _ & -> & ->). reflexivity. }
  destruct (split1_nosep sp n [] (join_sp opts) (opt_nosp n Hw)) as [A B]. cbn [rev app] in A, B.
  destruct opts as [|o t].
  - cbn [join_sp]. rewrite B, Hlow, Hd, Hl. reflexivity.
  - change (join_sp (n :: o :: t)) with (n ++ sp :: join_sp (o :: t)). rewrite A, Hlow, Hd, Hl.
    rewrite options_list_roundtrip by assumption. reflexivity.
Qed.

Definition wf_ann (a : str * list str) : Prop := list_name_ok (fst a) /\ Forall (fun o => opt_ok o = true) (snd a).

Lemma body_ok n opts : wf_ann (n, opts) ->
  (forallb plain (body_of n opts) = true /\ body_of n opts <> []) /\ strip (body_of n opts) = body_of n opts.
Proof.
  intros [Hn Ho]. cbn [fst snd] in Hn, Ho. rewrite body_of_join.
  assert (H : Forall (fun o => opt_ok o = true) (n :: opts)) by (constructor; [apply name_ok_inv|]; assumption).
  repeat split.
  - apply forallb_Forall, join_sp_chars; [reflexivity | | exact H]. intros c Hc. apply opt_char_inv in Hc. apply Hc.
  - apply join_sp_nonempty, Hn.
  - apply strip_trimmed, join_sp_trimmed. exact (Forall_impl _ opt_trimmed H).
Qed.

(* the writer separates the groups by one space: no blank before the first, one before each of the others *)
Definition items_of (bodies : list str) : list (str * str) :=
  match bodies with [] => [] | b :: t => ([], b) :: map (fun x => ([sp], x)) t end.

Lemma serialize_as_groups bodies :
  join_sp (map (fun b => lpar :: b ++ [rpar]) bodies) = render_groups (items_of bodies).
Proof.
  destruct bodies as [|b t]; [reflexivity|]. cbn [map]. rewrite join_sp_cons.
  cbn [items_of render_groups flat_map fst snd app]. rewrite !flat_map_concat_map, !map_map. reflexivity.
Qed.

Lemma items_of_ok bodies : Forall (fun b => forallb plain b = true /\ b <> []) bodies -> Forall item_ok (items_of bodies).
Proof.
  intros H. destruct H as [|b t Hb Ht]; constructor; [exact (conj eq_refl Hb)|].
  apply Forall_map. exact (Forall_impl _ (fun x Hx => conj eq_refl Hx) Ht).
Qed.

Lemma items_of_bodies bodies : map snd (items_of bodies) = bodies.
Proof. destruct bodies as [|b t]; [reflexivity|]. cbn. rewrite map_map. cbn. rewrite map_id. reflexivity. Qed.

Lemma serialize_as_render anns :
  serialize_annotations (map (fun a => (fst a, AList (snd a))) anns)
  = render_groups (items_of (map (fun a => body_of (fst a) (snd a)) anns)).
Proof.
  unfold serialize_annotations. rewrite <- serialize_as_groups, !map_map. f_equal.
  apply map_ext. intros [n [|o t]]; [reflexivity|].
  unfold serialize_annotation. cbn. rewrite <- app_assoc. reflexivity.
Qed.

Lemma parse_groups_serialized anns rest :
  Forall wf_ann anns -> match rest with [] => True | c :: _ => solid c = true end ->
  parse_groups (serialize_annotations (map (fun a => (fst a, AList (snd a))) anns) ++ rest)
  = GOk (map (fun a => body_of (fst a) (snd a)) anns) (length (serialize_annotations (map (fun a => (fst a, AList (snd a))) anns))).
Proof.
  intros H Hr. rewrite serialize_as_render.
  assert (HB : Forall (fun b => (forallb plain b = true /\ b <> []) /\ strip b = b) (map (fun a => body_of (fst a) (snd a)) anns)).
  { apply Forall_map. eapply Forall_impl; [|exact H]. intros [n o]. apply body_ok. }
  apply Forall_and_inv in HB as [HB HS].
  etransitivity; [exact (parse_groups_prefix _ [] rest (items_of_ok _ HB) eq_refl Hr)|]. f_equal.
  rewrite <- (map_map snd strip), items_of_bodies. apply map_id_on, HS.
Qed.

(* ann_set and dict_set of the model are both given by these two equations *)
Section OrderedDict.
  Context {V : Type} (set : list (str * V) -> str -> V -> list (str * V)).
  Context (set_nil : forall k v, set [] k v = [(k, v)]).
  Context (set_cons : forall a b t k v, set ((a, b) :: t) k v = if str_eqb a k then (a, v) :: t else (a, b) :: set t k v).

  Lemma set_fresh d k v : ~ In k (map fst d) -> set d k v = d ++ [(k, v)].
  Proof.
    induction d as [|[a b] t IH]; intros H; [apply set_nil|]. rewrite set_cons.
    destruct (str_eqb_spec a k) as [->|_]; [contradiction H; left; reflexivity|].
    rewrite IH; [reflexivity|]. intros F. apply H. right. exact F.
  Qed.

  (* reading texts back one after the other, where reading (r x) sets the entry (ent x): with distinct keys the
     result is the list of the entries *)
  Lemma fold_fresh {X Y} (step : list (str * V) -> Y -> list (str * V)) (r : X -> Y) (ent : X -> str * V) xs : forall acc,
    Forall (fun x => forall d, step d (r x) = set d (fst (ent x)) (snd (ent x))) xs ->
    NoDup (map fst acc ++ map (fun x => fst (ent x)) xs) ->
    fold_left step (map r xs) acc = acc ++ map ent xs.
  Proof.
    induction xs as [|x t IH]; intros acc H N; [cbn; rewrite app_nil_r; reflexivity|].
    apply Forall_cons_iff in H as [Hx Ht]. cbn [map fold_left] in *.
    rewrite Hx, set_fresh, <- surjective_pairing, IH, <- app_assoc; [reflexivity | exact Ht | |].
    - rewrite map_app, <- app_assoc. exact N.
    - intros F. apply NoDup_remove_2 in N. apply N, in_or_app. left. exact F.
  Qed.
End OrderedDict.

Lemma annotations_of_serialized anns : Forall wf_ann anns -> NoDup (map fst anns) ->
  annotations_of (map (fun a => body_of (fst a) (snd a)) anns) = map (fun a => (fst a, AList (snd a))) anns.
Proof.
  intros H N.
  apply (fold_fresh ann_set) with (ent := fun a => (fst a, AList (snd a))) (acc := []); [reflexivity.. | | exact N].
  eapply Forall_impl; [|exact H]. intros [n o] [Hn Ho] d. cbn [fst snd] in *.
  rewrite (list_annotation_roundtrip n o Hn Ho). reflexivity.
Qed.

(* a description: begins with something that is neither blank nor parenthesis, does not end in a blank *)
Definition desc_ok (d : str) : bool :=
  match d, rev d with
  | c :: _, l :: _ => solid c && negb (is_space l)
  | _, _ => false
  end.

Lemma desc_ok_inv d : desc_ok d = true -> match d with [] => True | c :: _ => solid c = true end /\ trimmed d.
Proof.
  unfold desc_ok, trimmed. destruct d as [|c t]; [discriminate|]. destruct (rev (c :: t)) as [|l u]; [discriminate|].
  cbn [hd]. rewrite andb_true_iff, negb_true_iff. intros [Hc Hl]. repeat split; try assumption. apply solid_inv in Hc. apply Hc.
Qed.

Definition render_kv (kv : str * option str) : str :=
  match snd kv with Some v => fst kv ++ 61 :: v | None => fst kv end.
(* a key=value option that comes back as written: the key is not empty and has no space (U+0020, at which the options are
   split) and no '=', the value has no space (it may contain '=') *)
Definition kv_ok (kv : str * option str) : bool :=
  negb (match fst kv with [] => true | _ => false end) && nosp (fst kv) && forallb (fun c => negb (N.eqb c 61)) (fst kv)
  && match snd kv with Some v => nosp v | None => true end.

Lemma kv_ok_inv k v : kv_ok (k, v) = true ->
  k <> [] /\ nosp k = true /\ forallb (fun c => negb (N.eqb c 61)) k = true /\ match v with Some v => nosp v | None => true end = true.
Proof.
  unfold kv_ok. cbn [fst snd]. rewrite !andb_true_iff, negb_true_iff. intros [[[Hne Hs] Hk] Hv].
  repeat split; try assumption. intros ->. discriminate.
Qed.

Lemma split1_render kv : kv_ok kv = true -> split1 61 (render_kv kv) [] = kv.
Proof.
  destruct kv as [k v]. intros H. apply kv_ok_inv in H as (_ & _ & Hk & _). unfold render_kv. cbn [fst snd].
  destruct v as [v|]; [apply (split1_nosep 61 k [] v Hk) | apply (split1_nosep 61 k [] [] Hk)].
Qed.

Lemma render_kv_ok kv : kv_ok kv = true -> render_kv kv <> [] /\ nosp (render_kv kv) = true.
Proof.
  destruct kv as [k v]. intros H. apply kv_ok_inv in H as (Hne & Hk & _ & Hv). unfold render_kv, nosp in *. cbn [fst snd].
  destruct v as [v|]; [|auto]. split; [destruct k; [contradiction | discriminate]|]. rewrite forallb_app, Hk. exact Hv.
Qed.

Lemma fold_dict kvs : Forall (fun kv => kv_ok kv = true) kvs -> NoDup (map fst kvs) ->
  fold_left (fun d p => let '(k, v) := split1 61 p [] in dict_set d k v) (map render_kv kvs) [] = kvs.
Proof.
  intros H N. rewrite <- (map_id kvs) at 2.
  apply (fold_fresh dict_set) with (ent := fun kv => kv) (acc := []); [reflexivity.. | | exact N].
  eapply Forall_impl; [|exact H]. intros [k v] Hkv d. rewrite (split1_render _ Hkv). reflexivity.
Qed.

Lemma parse_options_dict_some x : x <> [] ->
  parse_options_dict (Some x) = fold_left (fun d p => let '(k, v) := split1 61 p [] in dict_set d k v) (split_sp x []) [].
Proof. destruct x; [congruence | reflexivity]. Qed.

(* for C11 (Props/C11.v, C11_caret_within_field): an error of the character loop is reported at the index of a character
   of the field *)
Lemma pstep_fail_index st i c e j : pstep st i c = PFail e j -> j = i.
Proof.
  unfold pstep. cbv zeta. fold (prev_lpar (ps_prev st)).
  destruct (N.eqb c lpar); [destruct (prev_lpar (ps_prev st)); congruence|].
  destruct (N.eqb c rpar); [destruct (prev_lpar (ps_prev st)), (ps_level st) as [|[|]]; congruence|].
  destruct (is_space c), (ps_level st); congruence.
Qed.

Lemma ploop_fail_index x : forall i st e j, ploop x i st = PFail e j -> (i <= j < i + length x)%nat.
Proof.
  induction x as [|c t IH]; intros i st e j H; [discriminate|].
  cbn [ploop] in H. cbn [length]. destruct (pstep st i c) as [st'|st'|e' j'] eqn:P.
  - apply IH in H. lia.
  - discriminate.
  - apply pstep_fail_index in P. injection H as _ <-. lia.
Qed.
