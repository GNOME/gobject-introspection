From Coq Require Import List NArith Bool Lia.
From GIV.Lib Require Import Facts Regex RegexLemmas Backtrack BtBounds Str.
From GIV.Model Require Import C19.
Import ListNotations.
Local Open Scope N_scope.

Definition slash : N := 47.
Definition libname_char (c : N) : bool :=     (* [/A-Za-z0-9_-] *)
  N.eqb c 47 || ((65 <=? c) && (c <=? 90)) || ((97 <=? c) && (c <=? 122))
  || ((48 <=? c) && (c <=? 57)) || N.eqb c 95 || N.eqb c 45.
Definition no_nl (s : str) := Forall (fun x => x <> 10) s.
Definition no_slash (s : str) := Forall (fun x => x <> slash) s.
Definition lib : str := [108;105;98].

Lemma eqb_range c k : N.eqb c k = (k <=? c) && (c <=? k).
Proof. destruct (N.eqb_spec c k), (N.leb_spec k c), (N.leb_spec c k); try reflexivity; lia. Qed.

Lemma libname_cls c :
  cls_mem (CNot (CRanges [(47,47);(65,90);(97,122);(48,57);(95,95);(45,45)])) c = negb (libname_char c).
Proof.
  unfold libname_char. cbn [cls_mem]. rewrite in_ranges_existsb, !eqb_range. cbn [existsb fst snd].
  rewrite orb_false_r, !orb_assoc. reflexivity.
Qed.

(* the three confusions the property names *)
Example pango_not_pangoft2 :   (* pango vs /lib/libpangoft2.so *)
  ldd_match [112;97;110;103;111] [47;108;105;98;47;108;105;98;112;97;110;103;111;102;116;50;46;115;111] = false.
Proof. vm_compute. reflexivity. Qed.
Example foo_not_foo_bar :      (* foo vs libfoo-bar.so.1 *)
  ldd_match [102;111;111] [108;105;98;102;111;111;45;98;97;114;46;115;111;46;49] = false.
Proof. vm_compute. reflexivity. Qed.
Example foo_not_liblibfoo :    (* foo vs /usr/lib/liblibfoo.so *)
  ldd_match [102;111;111] [47;117;115;114;47;108;105;98;47;108;105;98;108;105;98;102;111;111;46;115;111] = false.
Proof. vm_compute. reflexivity. Qed.
Example foo_matches :          (* foo vs /usr/lib/libfoo.so.1 *)
  ldd_match [102;111;111] [47;117;115;114;47;108;105;98;47;108;105;98;102;111;111;46;115;111;46;49] = true.
Proof. vm_compute. reflexivity. Qed.

Section Loop.
  Variable m : str -> str -> bool.

  Lemma take_first_spec w ps :
    match take_first m w ps with
    | Some ps' => exists l1 q l2, ps = l1 ++ q :: l2 /\ ps' = l1 ++ l2 /\ m q w = true /\
                                  forall p, In p l1 -> m p w = false
    | None => forall p, In p ps -> m p w = false
    end.
  Proof.
    induction ps as [|p t IH]; simpl; [intros p []|].
    destruct (m p w) eqn:E.
    - exists [], p, t. repeat split; trivial. intros q [].
    - destruct (take_first m w t) as [t'|].
      + destruct IH as (l1 & q & l2 & -> & -> & Hq & Hl1). exists (p :: l1), q, l2. repeat split; trivial.
        intros r [ <- |Hr]; auto.
      + intros q [ <- |Hq]; auto.
  Qed.

  Definition disjoint (ps ws : list str) : Prop :=
    forall w p1 p2, In w ws -> In p1 ps -> In p2 ps -> m p1 w = true -> m p2 w = true -> p1 = p2.

  Lemma disjoint_tail ps w t : disjoint ps (w :: t) -> disjoint ps t.
  Proof. intros H w2 p1 p2 Hw. apply H. right. exact Hw. Qed.
  Lemma disjoint_remove l1 q l2 ws : disjoint (l1 ++ q :: l2) ws -> disjoint (l1 ++ l2) ws.
  Proof. intros H w p1 p2 Hw H1 H2. apply H; [exact Hw| |]; apply in_app_mid; auto. Qed.

  Lemma others_dont_match l1 q l2 w ws :
    NoDup (l1 ++ q :: l2) -> disjoint (l1 ++ q :: l2) (w :: ws) -> m q w = true ->
    forall p, In p (l1 ++ l2) -> m p w = false.
  Proof.
    intros Hnd Hdj Hq p Hp. apply not_true_is_false. intro Ep.
    apply (NoDup_remove_2 _ _ _ Hnd). replace q with p; [exact Hp|].
    apply (Hdj w); trivial; [left; reflexivity|apply in_app_mid; auto|apply in_elt].
  Qed.

  (* One run of the loop over the listed words [ws] with distinct requests [ps] that no word satisfies
     twice: a word either matches no request left, or exactly one, which is removed while the word is
     reported.  [r]: the requests left at the end, [f]: the words reported. *)
  Inductive loop : list str -> list str -> list str -> list str -> Prop :=
  | loop_nil ps : loop [] ps ps []
  | loop_skip w t ps r f : (forall p, In p ps -> m p w = false) -> loop t ps r f -> loop (w :: t) ps r f
  | loop_take w t l1 q l2 r f : m q w = true -> (forall p, In p (l1 ++ l2) -> m p w = false) ->
      loop t (l1 ++ l2) r f -> loop (w :: t) (l1 ++ q :: l2) r (w :: f).

  Lemma resolve_words_loop ws : forall ps acc, NoDup ps -> disjoint ps ws ->
    exists r f, resolve_words m ws ps acc = (r, rev acc ++ f) /\ loop ws ps r f.
  Proof.
    induction ws as [|w t IH]; intros ps acc Hnd Hdj; simpl.
    - exists ps, []. rewrite app_nil_r. split; [reflexivity|constructor].
    - pose proof (take_first_spec w ps) as Hs. destruct (take_first m w ps) as [ps'|].
      + destruct Hs as (l1 & q & l2 & -> & -> & Hq & _).
        destruct (IH (l1 ++ l2) (w :: acc)) as (r & f & -> & Hl).
        * apply (NoDup_remove_1 _ _ _ Hnd).
        * apply (disjoint_remove l1 q l2), (disjoint_tail _ w), Hdj.
        * exists r, (w :: f). simpl. rewrite <- app_assoc. split; [reflexivity|].
          apply loop_take; [exact Hq| |exact Hl]. apply (others_dont_match l1 q l2 w t); assumption.
      + destruct (IH ps acc Hnd (disjoint_tail _ _ _ Hdj)) as (r & f & -> & Hl).
        exists r, f. split; [reflexivity|]. apply loop_skip; assumption.
  Qed.

  (* the requests that no listed word satisfies, in request order *)
  Definition unresolved (ps ws : list str) := filter (fun p => negb (existsb (m p) ws)) ps.

  Lemma loop_remaining ws ps r f : loop ws ps r f -> r = unresolved ps ws.
  Proof.
    unfold unresolved. induction 1 as [ps|w t ps r f Hno _ IH|w t l1 q l2 r f Hq Hno _ IH]; simpl.
    - induction ps as [|p t IH]; simpl; congruence.
    - rewrite IH. apply filter_ext_in. intros p Hp. rewrite Hno by exact Hp. reflexivity.
    - rewrite IH, (filter_app _ l1 (q :: l2)). simpl. rewrite Hq. simpl. rewrite <- filter_app.
      apply filter_ext_in. intros p Hp. rewrite Hno by exact Hp. reflexivity.
  Qed.

  Inductive subseq {A} : list A -> list A -> Prop :=
  | sub_nil : subseq [] []
  | sub_skip x l1 l2 : subseq l1 l2 -> subseq l1 (x :: l2)
  | sub_take x l1 l2 : subseq l1 l2 -> subseq (x :: l1) (x :: l2).

  Lemma subseq_nil {A} (l : list A) : subseq [] l.
  Proof. induction l; constructor; assumption. Qed.

  (* the result keeps listing order *)
  Lemma loop_subseq ws ps r f : loop ws ps r f -> subseq f ws.
  Proof. induction 1; constructor; assumption. Qed.

  Lemma loop_lengths ws ps r f : loop ws ps r f -> (length r + length f = length ps)%nat.
  Proof. induction 1; rewrite ?app_length in *; simpl; lia. Qed.

  (* each reported word is the first listed match of a request, and conversely *)
  Lemma loop_found_first ws ps r f : loop ws ps r f ->
    forall x, In x f <-> exists p, In p ps /\ find (m p) ws = Some x.
  Proof.
    induction 1 as [ps|w t ps r f Hno _ IH|w t l1 q l2 r f Hq Hno _ IH]; intro x; simpl.
    - split; [intros []|intros (p & _ & [=])].
    - rewrite IH. split; intros (p & Hp & Hf); exists p; rewrite (Hno p Hp) in *; auto.
    - rewrite IH. split.
      + intros [ <- |(p & Hp & Hf)].
        * exists q. rewrite Hq. split; [apply in_elt|reflexivity].
        * exists p. rewrite (Hno p Hp). split; [apply in_app_mid; auto|exact Hf].
      + intros (p & [ <- |Hp]%in_app_mid & Hf).
        * left. rewrite Hq in Hf. injection Hf; auto.
        * right. exists p. rewrite (Hno p Hp) in Hf. auto.
  Qed.
End Loop.

Lemma dict_add_in k d p : In p (dict_add k d) <-> In p d \/ p = k.
Proof.
  unfold dict_add. destruct (existsb (str_eqb k) d) eqn:E.
  - apply existsb_str_eqb in E. split; [auto|intros [H| ->]; assumption].
  - rewrite in_app_iff. simpl. split; [intros [H|[ <- |[]]]|intros [H| ->]]; auto.
Qed.
Lemma dict_add_nodup k d : NoDup d -> NoDup (dict_add k d).
Proof.
  intro H. unfold dict_add. destruct (existsb (str_eqb k) d) eqn:E; [exact H|].
  apply (NoDup_Add (Add_app k d [])). rewrite app_nil_r, <- existsb_str_eqb, E. split; [exact H|discriminate].
Qed.

Lemma mk_patterns_in (isfile : str -> bool) libs p : forall d,
  In p (fold_left (fun d l => if isfile l then d else dict_add l d) libs d) <->
  In p d \/ (In p libs /\ isfile p = false).
Proof.
  induction libs as [|l t IH]; intro d; simpl; [tauto|]. rewrite IH.
  destruct (isfile l) eqn:E; [|rewrite dict_add_in].
  - split; [tauto|]. intros [H|[[ <- |H] Hf]]; auto; congruence.
  - split; [intros [[H| ->]|[H Hf]]|intros [H|[[ <- |H] Hf]]]; auto.
Qed.

(* a group of a successful search is a slice of the subject, for any pattern and group *)
Lemma bsearch_group_slice r id data cs n : bsearch r data = Some cs -> group id data cs = Some n ->
  exists a b, (a <= b <= length data)%nat /\ n = slice data a b.
Proof.
  intros Hs. unfold group. destruct (lookup id cs) as [[a b]|] eqn:El; [|discriminate]. intros [= <-].
  exists a, b. split; [|reflexivity]. apply (lookup_caps_ok _ id cs (a, b)); [|exact El].
  exact (bsearch_caps_in_bounds r data 0 cs Hs).
Qed.
