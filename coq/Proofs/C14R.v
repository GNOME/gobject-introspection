From Coq Require Import List NArith Bool.
From GIV.Lib Require Import Regex Str.
From GIV.Model Require Import C14 C14R.
From GIV.Proofs Require Import C14.
Import ListNotations.
Local Open Scope N_scope.

Definition entry_of (libs : list tlib) (g : str) (e : dentry) : Prop :=
  exists l, In l libs /\ In e l.(t_dir) /\ e.(d_registered) = true /\ e.(d_gtype_name) = Some g.

(* what the two tables may hold *)
Definition rinv (st : rstate) : Prop :=
  (forall g e, assoc g (r_found st) = Some e -> entry_of (r_libs st) g e) /\
  (forall g, In g (r_unknown st) -> forall l, In l (r_libs st) -> ~ has_gtype l g).

Definition answer_ok (libs : list tlib) (g : str) (a : option dentry) : Prop :=
  match a with
  | Some e => entry_of libs g e
  | None => forall l, In l libs -> ~ has_gtype l g
  end.

Lemma smem_in g l : smem g l = true -> In g l.
Proof. intros (x & Hin & <-%str_eqb_eq)%existsb_exists. exact Hin. Qed.

Lemma rinv_empty : rinv r_empty.
Proof. split; simpl; [intros; discriminate|intros g []]. Qed.

(* a registration keeps the remembered finds right and forgets the misses *)
Lemma rload_inv st lazy l : rinv st -> rinv (fst (rstep st (RLoad lazy l))).
Proof.
  intros [Hf _]. split; simpl; [|rewrite andb_false_r; intros g []].
  intros g e Ha. destruct (Hf g e Ha) as (l' & Hin & Hr). exists l'. split; [|exact Hr].
  unfold r_libs in *. destruct lazy; simpl; rewrite !in_app_iff in *; tauto.
Qed.

(* a lookup answers from what it remembers or searches, and remembers what it answered *)
Lemma rfind_ok st g : rinv st ->
  rinv (fst (rstep st (RFind g))) /\ forall a, snd (rstep st (RFind g)) = Some a -> answer_ok (r_libs st) g a.
Proof.
  intros [Hf Hu]. cbn [rstep rstep_gen].
  destruct (assoc g (r_found st)) as [e|] eqn:Ea; [|destruct (smem g (r_unknown st)) eqn:Em].
  - split; [split; assumption|]. intros a [= <-]. apply Hf. exact Ea.
  - split; [split; assumption|]. intros a [= <-]. cbn [answer_ok]. apply Hu, smem_in, Em.
  - pose proof (find_by_gtype_spec (r_libs st) g) as Hs.
    destruct (find_by_gtype (r_libs st) g) as [e|]; (split; [|intros a [= <-]; exact Hs]).
    + split; [|exact Hu]. simpl. intros g' e'.
      destruct (str_eqb_spec g g') as [<-|_]; [intros [= <-]; exact Hs|apply Hf].
    + split; [exact Hf|]. simpl. intros g' [<-|Hin]; [exact Hs|apply Hu; exact Hin].
Qed.

(* every answer of every history is right for the typelibs loaded at that moment *)
Fixpoint answers_ok (st : rstate) (ops : list rop) : Prop :=
  match ops with
  | [] => True
  | o :: t => match o with
              | RFind g => forall a, snd (rstep st o) = Some a -> answer_ok (r_libs st) g a
              | RLoad _ _ => True
              end /\ answers_ok (fst (rstep st o)) t
  end.

Lemma history_ok ops : forall st, rinv st -> answers_ok st ops.
Proof.
  induction ops as [|[lazy l|g] t IH]; intros st Hi; cbn [answers_ok]; [exact I| |].
  - split; [exact I|]. apply IH, rload_inv, Hi.
  - destruct (rfind_ok st g Hi) as [Hi' Ha]. split; [exact Ha|apply IH, Hi'].
Qed.

(* the witness against the variant that keeps unknown_gtypes across a lazy registration: a typelib with prefix "D" whose
   entry "T" registers the GType name "DT" *)
Definition w_entry : dentry := {| d_name := [84]; d_registered := true; d_gtype_name := Some [68;84]; d_is_enum := false; d_error_domain := None |}.
Definition w_lib : tlib := {| t_prefixes := [[68]]; t_dir := [w_entry] |}.
