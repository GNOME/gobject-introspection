From Coq Require Import List ZArith Bool.
From GIV.Lib Require Import Regex Str.
From GIV.Gen Require Import ConstWrap.
From GIV.Model Require Import C13 C13Spec.
Import ListNotations.
Local Open Scope N_scope.

(* every documented width is the exponent the regenerated table of _create_const wraps by *)
Lemma widths_in_table :
  forallb (fun p => match wrap_lookup (fst p) const_wrap_table with Some k => Z.eqb k (snd p) && Z.ltb 0 k | None => false end)
          unsigned_widths = true.
Proof. vm_compute. reflexivity. Qed.

Lemma width_lookup_in fund k : forall tbl, width_lookup fund tbl = Some k -> In (fund, k) tbl.
Proof.
  induction tbl as [|[n w] t IH]; cbn [width_lookup]; [discriminate|].
  destruct (str_eqb_spec n fund) as [->|_]; [intros [= ->]; left; reflexivity | right; auto].
Qed.

Lemma const_value_wrapped fund k : unsigned_width fund = Some k -> (0 < k)%Z /\ forall v, const_value fund v = (v mod 2 ^ k)%Z.
Proof.
  intros H%width_lookup_in. pose proof widths_in_table as W. rewrite forallb_forall in W.
  specialize (W _ H). cbn [fst snd] in W. unfold const_value.
  destruct (wrap_lookup fund const_wrap_table) as [k'|]; [|discriminate].
  apply andb_true_iff in W as [->%Z.eqb_eq B%Z.ltb_lt]. auto.
Qed.

Definition nosep (sep : N) (w : str) : Prop := ~ In sep w.

Lemma join_words s : join [95] (words s) = s.
Proof. apply (join_split 95 (split_on_aux 95)); reflexivity. Qed.

Lemma split_on_join sep l : l <> [] -> Forall (nosep sep) l -> split_on sep (join [sep] l) = l.
Proof.
  destruct l as [|w l]; [contradiction|]. intros _ H.
  apply (split_join sep (split_on_aux sep)); [reflexivity..|exact H].
Qed.

Lemma words_nosep s : Forall (nosep 95) (words s).
Proof. apply (split_nosep 95 (split_on_aux 95)); [reflexivity..|intros []]. Qed.

Definition render_prefix (l : list str) : str :=
  match l with [] => [] | _ => join [95] l ++ [95] end.

Lemma render_prefix_cons x l : exists c r, render_prefix (x :: l) = c :: r.
Proof.
  unfold render_prefix. destruct (join [95] (x :: l)) as [|c r]; [exists 95, [] | exists c, (r ++ [95])]; reflexivity.
Qed.

(* two word lists that part before either ends *)
Lemma cp_go_diff wa : forall wb common a b,
  is_prefix wa wb = false -> is_prefix wb wa = false ->
  cp_go wa wb common a b = render_prefix (common ++ lcp2 wa wb).
Proof.
  induction wa as [|x wa IH]; intros [|y wb] common a b H1 H2; try discriminate. cbn in *.
  rewrite (str_eqb_sym y x) in H2. destruct (str_eqb x y).
  - rewrite IH, <- app_assoc by assumption. reflexivity.
  - rewrite app_nil_r. reflexivity.
Qed.

Lemma is_prefix_refl_sym x y : str_eqb x y = str_eqb y x.
Proof. apply str_eqb_sym. Qed.

Definition noempty (w : list str) : Prop := Forall (fun x => x <> []) w.

(* the "" that follows the '_' at the end of a prefix is no word of a member: the lists part there at the latest *)
Lemma cp_go_tail L : forall wc common a b,
  noempty wc -> is_prefix wc L = false ->
  cp_go (L ++ [[]]) wc common a b = render_prefix (common ++ lcp2 L wc).
Proof.
  induction L as [|x L IH]; intros [|y wc] common a b Hwc Hp; try discriminate;
    apply Forall_cons_iff in Hwc as [Hy Hwc]; cbn in *.
  - destruct y; [contradiction|]. rewrite app_nil_r. reflexivity.
  - rewrite (str_eqb_sym y x) in Hp. destruct (str_eqb x y).
    + rewrite IH, <- app_assoc by assumption. reflexivity.
    + rewrite app_nil_r. reflexivity.
Qed.

Lemma lcp2_Forall (P : str -> Prop) a : forall b, Forall P a -> Forall P (lcp2 a b).
Proof.
  induction a as [|x a IH]; intros [|y b] H; cbn; try constructor.
  apply Forall_cons_iff in H as [Hx Ha]. destruct (str_eqb x y); constructor; auto.
Qed.

Lemma not_prefix_lcp2 w : forall a b, is_prefix w a = false -> is_prefix w (lcp2 a b) = false.
Proof.
  induction w as [|z w IH]; intros [|x a] [|y b] H; try discriminate; try reflexivity. cbn in *.
  destruct (str_eqb x y); [|reflexivity]. cbn. destruct (str_eqb z x); [apply IH, H | reflexivity].
Qed.

Lemma words_render L : L <> [] -> Forall (nosep 95) L -> words (render_prefix L) = L ++ [[]].
Proof.
  intros Hne Hf. replace (render_prefix L) with (join [95] (L ++ [[]])).
  - apply split_on_join; [destruct L; discriminate|]. apply Forall_app. split; [exact Hf|]. repeat constructor. intros [].
  - rewrite join_app by (assumption || discriminate). destruct L; [contradiction | reflexivity].
Qed.

Lemma fold_lcp2_nil l : fold_left lcp2 l [] = [].
Proof. induction l as [|x t IH]; [reflexivity | exact IH]. Qed.

(* what the theorems ask of a later member c, F being the words of the first: no empty word (no doubled, leading or
   trailing '_'), and neither list of words is a prefix of the other *)
Definition member_ok (F : list str) (c : str) : Prop :=
  noempty (words c) /\ is_prefix F (words c) = false /\ is_prefix (words c) F = false.

Lemma loop_step p c t L :
  common_prefix p c = render_prefix L ->
  prefix_loop p (c :: t) = match L with [] => None | _ => prefix_loop (render_prefix L) t end.
Proof.
  intro E. cbn [prefix_loop]. rewrite E. destruct L as [|x l]; [reflexivity|].
  destruct (render_prefix_cons x l) as (a & r & ->). reflexivity.
Qed.

(* the running prefix is the rendering of words [L] that no member yet to come is a prefix of; each member
   shortens [L] to what it shares with it *)
Lemma loop_spec rest : forall L,
  Forall (nosep 95) L -> Forall (fun c => noempty (words c) /\ is_prefix (words c) L = false) rest ->
  match L with [] => None | _ => prefix_loop (render_prefix L) rest end =
  match fold_left lcp2 (map words rest) L with [] => None | l => Some (render_prefix l) end.
Proof.
  induction rest as [|c t IH]; intros L Hns Hrest; [destruct L; reflexivity|].
  apply Forall_cons_iff in Hrest as [[Hc Hp] Hrt]. cbn [map fold_left].
  destruct L as [|x l]; [cbn [lcp2]; rewrite fold_lcp2_nil; reflexivity|].
  rewrite (loop_step _ c t (lcp2 (x :: l) (words c))).
  - apply IH; [apply lcp2_Forall, Hns|]. eapply Forall_impl; [|exact Hrt].
    intros c' [Hc' Hp']. split; [exact Hc' | apply not_prefix_lcp2, Hp'].
  - unfold common_prefix. rewrite words_render by (discriminate || assumption).
    exact (cp_go_tail _ _ [] _ _ Hc Hp).
Qed.

Lemma opt_all_map {A B} (f : A -> option B) l : forall out,
  opt_all (map f l) = Some out -> Forall2 (fun x y => f x = Some y) l out.
Proof.
  induction l as [|x t IH]; cbn; intros out H.
  - injection H as <-. constructor.
  - destruct (f x) as [y|] eqn:E, (opt_all (map f t)) as [r|]; try discriminate. injection H as <-. auto.
Qed.
