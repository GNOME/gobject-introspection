From Coq Require Import List NArith ZArith Bool.
From GIV.Lib Require Import Regex Str.
From GIV.Model Require Import C20 C20Spec C20D.
From GIV.Proofs Require Import C20.
Import ListNotations.
Local Open Scope N_scope.

(* induction over statements and over lists of statements (the bodies of blocks) together; the cases come in the
   order leaf, comment, block, push, pop, raise, then the empty list and cons *)
Section StmtListInd.
  Context (P : stmt -> Prop) (Q : list stmt -> Prop).
  Context (Hleaf : forall t a d, P (SLeaf t a d)) (Hcomment : forall x, P (SComment x)).
  Context (Hctx : forall t a body, Q body -> P (SCtx t a body)).
  Context (Hpush : forall t a, P (SPush t a)) (Hpop : P SPop) (Hraise : P SRaise).
  Context (Hnil : Q []) (Hcons : forall x r, P x -> Q r -> Q (x :: r)).
  Fixpoint stmt_ind2 (p : stmt) : P p :=
    match p with
    | SLeaf t a d => Hleaf t a d
    | SComment x => Hcomment x
    | SCtx t a body =>
        Hctx t a body ((fix go (l : list stmt) : Q l :=
                         match l with
                         | [] => Hnil
                         | x :: r => Hcons x r (stmt_ind2 x) (go r)
                         end) body)
    | SPush t a => Hpush t a
    | SPop => Hpop
    | SRaise => Hraise
    end.
  Lemma stmt_list_ind : (forall p, P p) /\ (forall l, Q l).
  Proof.
    split; [exact stmt_ind2|]. induction l as [|x r IH]; [exact Hnil|]. apply Hcons; [apply stmt_ind2|exact IH].
  Qed.
End StmtListInd.

(* the text a statement adds at indentation i *)
Fixpoint rs (i : Z) (p : stmt) : str :=
  match p with
  | SLeaf t a d => sp i ++ build_xml_tag t a d i [32] ++ [10]
  | SComment x => sp i ++ ([60;33;45;45;32] ++ x ++ [32;45;45;62]) ++ [10]
  | SCtx t a body =>
      (sp i ++ ([60] ++ t ++ collect_attributes t a i [32] (zlen t + 2) ++ [62]) ++ [10])
      ++ flat_map (rs (i + 2)) body ++ (sp i ++ ([60;47] ++ t ++ [62]) ++ [10])
  | _ => []
  end.

Definition appended (st : wstate) (s : str) : wstate :=
  {| w_out := w_out st ++ s; w_stack := w_stack st; w_indent := w_indent st |}.

Lemma appended_nil st : appended st [] = st.
Proof. destruct st. unfold appended. simpl. rewrite app_nil_r. reflexivity. Qed.

Lemma appended_app st a b : appended (appended st a) b = appended st (a ++ b).
Proof. unfold appended. simpl. rewrite app_assoc. reflexivity. Qed.

Lemma exec_ctx_unfold t a body st :
  exec (SCtx t a body) st =
  let '(st2, r) := exec_list body (push_tag st t a) in
  let '(st3, r3) := pop_tag st2 in (st3, r || r3).
Proof. reflexivity. Qed.

(* a block whose body writes what the statements b' add (it may have stopped early): the block with body b' is added *)
Lemma exec_ctx t a body b' r st :
  exec_list body (push_tag st t a) = (appended (push_tag st t a) (flat_map (rs (w_indent st + 2)) b'), r) ->
  exec (SCtx t a body) st = (appended st (rs (w_indent st) (SCtx t a b')), r).
Proof.
  intro H. rewrite exec_ctx_unfold, H.
  unfold pop_tag, appended, push_tag, write_line. cbn [w_out w_stack w_indent rs].
  rewrite Z.add_simpl_r, orb_false_r. do 2 f_equal. unfold sp. rewrite <- !app_assoc. reflexivity.
Qed.

Lemma exec_pure_both :
  (forall p, pure p = true -> forall st, exec p st = (appended st (rs (w_indent st) p), false)) /\
  (forall l, forallb pure l = true ->
     forall st, exec_list l st = (appended st (flat_map (rs (w_indent st)) l), false)).
Proof.
  apply stmt_list_ind.
  - reflexivity.
  - reflexivity.
  - intros t a body IH Hp st. apply exec_ctx, (IH Hp).
  - discriminate.
  - discriminate.
  - discriminate.
  - intros _ st. simpl. rewrite appended_nil. reflexivity.
  - intros x r Hx Hr [Hpx Hpr]%andb_true_iff st.
    cbn [exec_list flat_map]. rewrite (Hx Hpx), (Hr Hpr), appended_app. reflexivity.
Qed.

Theorem exec_pure : forall p, pure p = true ->
  forall st, exec p st = (appended st (rs (w_indent st) p), false).
Proof. apply exec_pure_both. Qed.

Theorem run_program_pure l : forallb pure l = true ->
  run_program l = (xml_decl ++ flat_map (rs 0) l, false).
Proof. intro Hp. unfold run_program. rewrite (proj2 exec_pure_both l Hp). reflexivity. Qed.

Fixpoint pa_run (s : str) (st : pstate) (acc : list (str * str)) : option (pstate * list (str * str)) :=
  match s with
  | [] => Some (st, acc)
  | c :: t => match pa_step c st acc with
              | Some (st', acc') => pa_run t st' acc'
              | None => None
              end
  end.

(* pa_step is one character of pa: in each state the two branch on the same conditions *)
Lemma pa_cons c t st acc :
  pa (c :: t) st acc = match pa_step c st acc with Some (st', acc') => pa t st' acc' | None => None end.
Proof.
  destruct st as [|buf|name|q buf name|]; cbn [pa pa_step].
  - destruct (xml_ws c), (name_char c); reflexivity.
  - destruct (N.eqb c 61), (name_char c); reflexivity.
  - destruct (N.eqb c 34 || N.eqb c 39); reflexivity.
  - destruct (N.eqb c q), (unescape (rev buf)), (N.eqb c 60); reflexivity.
  - destruct (xml_ws c); reflexivity.
Qed.

Lemma pa_as_run s : forall st acc,
  pa s st acc = match pa_run s st acc with Some (st', acc') => pa [] st' acc' | None => None end.
Proof.
  induction s as [|c t IH]; intros st acc; [reflexivity|].
  rewrite pa_cons. cbn [pa_run]. destruct (pa_step c st acc) as [[st' acc']|]; [apply IH|reflexivity].
Qed.

(* between two attributes the scanner takes neither '>' nor '/', so the reader's test for the end of the tag comes first
   without changing what is read *)
Lemma pa_step_end st acc : between_attrs st = true -> pa_step 62 st acc = None /\ pa_step 47 st acc = None.
Proof. destruct st; try discriminate; split; reflexivity. Qed.

Lemma lx_attrs_run n r c st' acc' x : forall st acc,
  pa_run x st acc = Some (st', acc') ->
  lx (x ++ r) (LAttrs n st acc) c = lx r (LAttrs n st' acc') c.
Proof.
  induction x as [|ch t IH]; intros st acc H; simpl in H.
  - injection H as -> ->. reflexivity.
  - destruct (pa_step ch st acc) as [[s1 a1]|] eqn:E; [|discriminate].
    simpl app. cbn [lx]. rewrite E. destruct (between_attrs st) eqn:Eb; [|apply IH, H].
    destruct (pa_step_end st acc Eb) as [E62 E47].
    destruct (N.eqb_spec ch 62) as [->|_]; [congruence|]. destruct (N.eqb_spec ch 47) as [->|_]; [congruence|].
    apply IH, H.
Qed.

(* the attribute text is empty or begins with a blank, whether or not the tag is wrapped ([il] is the indentation
   collect_attributes chooses: not 0 when the line would pass column 79) *)
Lemma collect_loop_shape il ichar : forall a,
  collect_loop a il ichar true = [] \/ exists x, collect_loop a il ichar true = 32 :: x.
Proof.
  induction a as [|[n [v|]] a IH]; cbn [collect_loop].
  - left. reflexivity.
  - right. rewrite andb_false_r. eexists. reflexivity.
  - exact IH.
Qed.

Lemma collect_shape t a si ichar ind :
  collect_attributes t a si ichar ind = [] \/ exists x, collect_attributes t a si ichar ind = 32 :: x.
Proof. unfold collect_attributes. destruct a; [left; reflexivity|apply collect_loop_shape]. Qed.

Definition valid_tag (t : str) : Prop :=
  valid_name t /\ match t with c :: _ => c <> 33 /\ c <> 63 | [] => False end.

Lemma lx_open_name r c t : forall buf, forallb name_char t = true ->
  lx (t ++ r) (LOpen buf) c = lx r (LOpen (rev t ++ buf)) c.
Proof.
  induction t as [|ch t IH]; intros buf H; [reflexivity|].
  simpl in H. apply andb_true_iff in H as [Hc Ht]. destruct (name_char_facts ch Hc) as (Hws & _ & H62 & H47).
  simpl app. cbn [lx]. rewrite Hws, H62, H47, Hc, IH by exact Ht.
  simpl. rewrite <- app_assoc. reflexivity.
Qed.

Lemma lx_name t r c : valid_tag t -> lx (t ++ r) LLt c = lx r (LOpen (rev t)) c.
Proof.
  intros [[_ Hall] Hfirst]. destruct t as [|c0 t]; [contradiction|]. destruct Hfirst as [H33 H63].
  simpl in Hall. apply andb_true_iff in Hall as [Hc0 Ht]. destruct (name_char_facts c0 Hc0) as (_ & _ & _ & H47).
  apply N.eqb_neq in H33, H63. simpl app. cbn [lx]. rewrite H33, H63, H47, Hc0. apply lx_open_name, Ht.
Qed.

Lemma lx_attr_text n x attrs r c : x = [] \/ (exists x', x = 32 :: x') -> parse_attrs x = Some attrs ->
  lx (x ++ 62 :: r) (LOpen (rev n)) c = lx r (LText []) (open_el n attrs c) /\
  lx (x ++ 47 :: 62 :: r) (LOpen (rev n)) c = lx r (LText []) (add_node (NElem n attrs []) c).
Proof.
  intros Hx Hpc. unfold parse_attrs in Hpc. rewrite pa_as_run in Hpc.
  destruct (pa_run x PWs []) as [[st acc]|] eqn:Er; [|discriminate].
  assert (between_attrs st = true /\ rev acc = attrs) as [Hb <-]
    by (destruct st; try discriminate; injection Hpc as <-; split; reflexivity).
  destruct Hx as [->|[x' ->]].
  - injection Er as <- <-. simpl. rewrite rev_involutive. split; reflexivity.
  - (* the blank ends the element name; the attribute scanner, in PWs, passes over it too, so that Er is about x' *)
    simpl app. cbn [lx]. change (xml_ws 32) with true. cbv iota. change (pa_run x' PWs [] = Some (st, acc)) in Er.
    rewrite rev_involutive, !(lx_attrs_run n _ c st acc x' PWs [] Er). cbn [lx]. rewrite Hb. split; reflexivity.
Qed.

(* after '<': the name, the attribute text of collect_attributes, and what ends the tag *)
Lemma lx_tag t a si ichar ind r c :
  valid_tag t -> names_ok a -> forallb xml_ws ichar = true ->
  let x := collect_attributes t a si ichar ind in
  lx (t ++ x ++ 62 :: r) LLt c = lx r (LText []) (open_el t (present a) c) /\
  lx (t ++ x ++ 47 :: 62 :: r) LLt c = lx r (LText []) (add_node (NElem t (present a) []) c).
Proof.
  intros Ht Hn Hic x. rewrite !lx_name by exact Ht.
  apply lx_attr_text; [apply collect_shape|apply parse_collect; assumption].
Qed.

Lemma lx_text w : ~ In 60 w -> forall buf r c,
  lx (w ++ 60 :: r) (LText buf) c =
  match flush (rev w ++ buf) c with Some c' => lx r LLt c' | None => None end.
Proof.
  induction w as [|ch w IH]; intros Hn buf r c; [reflexivity|]. simpl in *.
  destruct (N.eqb_spec ch 60) as [->|_]; [tauto|]. rewrite IH, <- app_assoc by tauto. reflexivity.
Qed.

Lemma unesc_plain s : ~ In 38 s -> unesc s None = Some s.
Proof.
  induction s as [|c t IH]; intro H; [reflexivity|]. simpl in *.
  destruct (N.eqb_spec c 38) as [->|_]; [tauto|]. rewrite IH by tauto. reflexivity.
Qed.

Lemma in_sp x i : In x (sp i) -> x = 32.
Proof.
  unfold sp, mul_str. induction (Z.to_nat i) as [|k IH]; simpl; [tauto|].
  intros [H|H]; [symmetry; exact H|apply IH; exact H].
Qed.

Lemma flush_text buf v c : unescape (rev buf) = Some v -> v <> [] -> flush buf c = Some (add_node (NText v) c).
Proof.
  intros H Hv. destruct buf as [|x b]; [injection H as <-; contradiction|].
  unfold flush. rewrite H. reflexivity.
Qed.

(* a line of the writer begins: the pending line break and the indentation are one text node *)
Lemma lx_indent i r c :
  lx (sp i ++ 60 :: r) (LText [10]) c = lx r LLt (add_node (NText (10 :: sp i)) c).
Proof.
  rewrite lx_text by (intro H; apply in_sp in H; discriminate).
  rewrite (flush_text _ (10 :: sp i)); [reflexivity| |discriminate].
  rewrite rev_app_distr, rev_involutive. apply unesc_plain.
  intros [H|H]; [discriminate|]. apply in_sp in H. discriminate.
Qed.

Lemma flush_data d cur stk : flush (rev (escape d)) (cur, stk) = Some (rev (data_nodes (Some d)) ++ cur, stk).
Proof.
  destruct d as [|x d']; [reflexivity|].
  apply flush_text; [|discriminate]. rewrite rev_involutive. apply unescape_escape.
Qed.

Lemma lx_close t : forallb name_char t = true -> forall buf r c,
  lx (t ++ 62 :: r) (LClose buf) c =
  match close_el (rev buf ++ t) c with Some c' => lx r (LText []) c' | None => None end.
Proof.
  induction t as [|ch t IH]; intros H buf r c; simpl in *.
  - rewrite app_nil_r. reflexivity.
  - apply andb_true_iff in H as [Hc Ht]. destruct (name_char_facts ch Hc) as (_ & _ & -> & _).
    rewrite Hc, IH by exact Ht. simpl. rewrite <- app_assoc. reflexivity.
Qed.

(* the end tag of the element being read, and the line break after it *)
Lemma lx_end_tag t a kids par stk r : forallb name_char t = true ->
  lx (47 :: t ++ 62 :: 10 :: r) LLt (kids, (t, a, par) :: stk) =
  lx r (LText [10]) (NElem t a (rev kids) :: par, stk).
Proof.
  intro H. (* '/' after '<' begins an end tag *)
  change (lx (47 :: ?x) LLt ?c) with (lx x (LClose []) c). rewrite lx_close by exact H.
  unfold close_el. cbn [fst snd rev app]. rewrite str_eqb_refl. reflexivity.
Qed.

(* comment text: the end mark does not occur in it *)
Definition no_cend (s : str) : Prop := forall p q, s <> p ++ [45;45;62] ++ q.

Lemma lx_comment x : forall buf r c, no_cend (rev buf ++ x) ->
  lx (x ++ 45 :: 45 :: 62 :: r) (LComment buf) c = lx r (LText []) (add_node (NComment (rev buf ++ x)) c).
Proof.
  induction x as [|ch x IH]; intros buf r c Hn.
  - simpl. rewrite app_nil_r. reflexivity.
  - transitivity (lx (x ++ 45 :: 45 :: 62 :: r) (LComment (ch :: buf)) c).
    + simpl app. cbn [lx]. destruct (N.eqb_spec ch 62) as [->|_]; [|reflexivity].
      destruct buf as [|a [|b rest]]; try reflexivity.
      destruct (N.eqb_spec a 45) as [->|_]; [|reflexivity]. destruct (N.eqb_spec b 45) as [->|_]; [|reflexivity].
      exfalso. apply (Hn (rev rest) x). simpl. rewrite <- !app_assoc. reflexivity.
    + rewrite IH; simpl; rewrite <- app_assoc; [reflexivity|exact Hn].
Qed.

(* a comment as the writer pads it, from after '<' on *)
Lemma lx_comment_padded x r c : no_cend (32 :: x ++ [32]) ->
  lx (33 :: 45 :: 45 :: 32 :: x ++ 32 :: 45 :: 45 :: 62 :: r) LLt c =
  lx r (LText []) (add_node (NComment (32 :: x ++ [32])) c).
Proof.
  intro H. etransitivity; [|exact (lx_comment (32 :: x ++ [32]) [] r c H)].
  simpl. rewrite <- app_assoc. reflexivity.
Qed.

(* what is asked of a program: element names are tag names, attribute names are names, and no comment, padded as the
   writer pads it, contains the end mark; attribute values and element text are arbitrary *)
Fixpoint wf (p : stmt) : Prop :=
  match p with
  | SLeaf t a _ => valid_tag t /\ names_ok a
  | SComment x => no_cend (32 :: x ++ [32])
  | SCtx t a body =>
      valid_tag t /\ names_ok a /\
      (fix all (l : list stmt) : Prop := match l with [] => True | x :: r => wf x /\ all r end) body
  | _ => True
  end.

Lemma wf_ctx t a body : wf (SCtx t a body) <-> valid_tag t /\ names_ok a /\ Forall wf body.
Proof.
  cbn [wf]. induction body as [|x r IH].
  - rewrite Forall_nil_iff. tauto.
  - rewrite Forall_cons_iff. tauto.
Qed.

(* the text of p at indentation i takes the reader, whatever its stack, from one line break to the next, the
   indentation and the nodes of layout being added *)
Definition parses (i : Z) (p : stmt) : Prop :=
  forall r cur stk,
    lx (rs i p ++ r) (LText [10]) (cur, stk) =
    lx r (LText [10]) (rev (layout i p) ++ NText (10 :: sp i) :: cur, stk).

(* Each case first writes the text as a list of characters and pieces, which is the form the lx lemmas are
   stated in. *)
Lemma parses_both :
  (forall p, pure p = true -> wf p -> forall i, parses i p) /\
  (forall l, forallb pure l = true -> Forall wf l -> forall j r cur stk,
     lx (flat_map (rs j) l ++ r) (LText [10]) (cur, stk) =
     lx r (LText [10]) (rev (flat_map (fun c => NText (10 :: sp j) :: layout j c) l) ++ cur, stk)).
Proof.
  apply stmt_list_ind.
  - (* leaf element *)
    intros t a d _ [Ht Ha] i r cur stk. cbn [rs layout]. unfold build_xml_tag.
    destruct d as [d|]; rewrite <- !app_assoc; cbn [app]; rewrite lx_indent.
    + rewrite (proj1 (lx_tag t a i [32] _ _ _ Ht Ha eq_refl)), lx_text by apply escape_no_markup.
      unfold open_el. rewrite app_nil_r, flush_data. cbn [fst snd]. rewrite lx_end_tag by apply Ht.
      rewrite app_nil_r, rev_involutive. reflexivity.
    + rewrite (proj2 (lx_tag t a i [32] _ _ _ Ht Ha eq_refl)). reflexivity.
  - (* comment *)
    intros x _ Hx i r cur stk. cbn [rs layout wf] in *. rewrite <- !app_assoc. cbn [app].
    rewrite lx_indent, lx_comment_padded by exact Hx. reflexivity.
  - (* with tagcontext *)
    intros t a body IH Hp (Ht & Ha & Hwb)%wf_ctx i r cur stk.
    cbn [rs layout]. rewrite <- !app_assoc. cbn [app]. rewrite lx_indent.
    rewrite (proj1 (lx_tag t a i [32] _ _ _ Ht Ha eq_refl)). unfold open_el, add_node. cbn [fst snd].
    (* the line break after the start tag becomes the pending text, as the statement about the body has it *)
    change (lx (10 :: ?x) (LText []) ?c) with (lx x (LText [10]) c).
    rewrite (IH Hp Hwb), lx_indent. unfold add_node. cbn [fst snd]. rewrite lx_end_tag by apply Ht.
    cbn [rev]. rewrite app_nil_r, rev_involutive. reflexivity.
  - discriminate.
  - discriminate.
  - discriminate.
  - reflexivity.
  - intros x l Hx Hl [Hpx Hpl]%andb_true_iff [Hwx Hwl]%Forall_cons_iff j r cur stk.
    cbn [flat_map]. rewrite <- app_assoc, (Hx Hpx Hwx j), (Hl Hpl Hwl).
    do 2 f_equal. rewrite rev_app_distr. simpl. rewrite <- !app_assoc. reflexivity.
Qed.

Theorem stmt_parses : forall p, pure p = true -> wf p -> forall i, parses i p.
Proof. apply parses_both. Qed.

Lemma lx_decl r : lx (xml_decl ++ r) (LText []) ([], []) = lx r (LText [10]) ([NPI decl_body], []).
Proof. reflexivity. Qed.

Lemma lx_last cur : lx [] (LText [10]) (cur, []) = Some (rev (NText [10] :: cur)).
Proof. reflexivity. Qed.

Theorem document_roundtrip l : forallb pure l = true -> Forall wf l ->
  xml_parse (fst (run_program l)) = Some (layout_doc l).
Proof.
  intros Hp Hw. rewrite run_program_pure by exact Hp. cbn [fst]. unfold xml_parse, layout_doc.
  rewrite lx_decl, <- (app_nil_r (flat_map (rs 0) l)), (proj2 parses_both l Hp Hw), lx_last.
  cbn [rev]. rewrite rev_app_distr, rev_involutive. reflexivity.
Qed.

(* no element text consists of blanks only: strip_all would drop it, as it drops indentation *)
Fixpoint data_ok (p : stmt) : bool :=
  match p with
  | SLeaf _ _ (Some s) => negb (forallb xml_ws s)
  | SCtx _ _ body => forallb data_ok body
  | _ => true
  end.

Lemma strip_elem t a kids : strip (NElem t a kids) = NElem t a (strip_all kids).
Proof. reflexivity. Qed.

Lemma strip_all_app a b : strip_all (a ++ b) = strip_all a ++ strip_all b.
Proof.
  induction a as [|k r IH]; [reflexivity|]. simpl app. cbn [strip_all].
  destruct (blank k); [apply IH|]. simpl. f_equal. apply IH.
Qed.

Lemma blank_indent i : blank (NText (10 :: sp i)) = true.
Proof. exact (mul_str_ws [32] i eq_refl). Qed.

Lemma strip_layout_both :
  (forall p, pure p = true -> data_ok p = true -> forall i, strip_all (layout i p) = doc_of p) /\
  (forall l, forallb pure l = true -> forallb data_ok l = true -> forall j,
     strip_all (flat_map (fun c => NText (10 :: sp j) :: layout j c) l) = flat_map doc_of l).
Proof.
  apply stmt_list_ind.
  - intros t a d _ Hd i. cbn [layout doc_of strip_all blank]. rewrite strip_elem. do 2 f_equal.
    destruct d as [[|x d']|]; try reflexivity.
    cbn [data_ok] in Hd. apply negb_true_iff in Hd. cbn [data_nodes strip_all blank]. rewrite Hd. reflexivity.
  - reflexivity.
  - intros t a body IH Hp Hd i. cbn [layout doc_of strip_all blank]. rewrite strip_elem. do 2 f_equal.
    rewrite strip_all_app, (IH Hp Hd). cbn [strip_all]. rewrite blank_indent. apply app_nil_r.
  - discriminate.
  - discriminate.
  - discriminate.
  - reflexivity.
  - intros x l Hx Hl [Hpx Hpl]%andb_true_iff [Hdx Hdl]%andb_true_iff j.
    cbn [flat_map]. rewrite strip_all_app. cbn [strip_all]. rewrite blank_indent, (Hx Hpx Hdx), (Hl Hpl Hdl).
    reflexivity.
Qed.

Theorem document_meaning l : forallb pure l = true -> Forall wf l -> forallb data_ok l = true ->
  exists d, xml_parse (fst (run_program l)) = Some d /\
            strip_all d = NPI decl_body :: flat_map doc_of l.
Proof.
  intros Hp Hw Hd. exists (layout_doc l). split; [apply document_roundtrip; assumption|].
  unfold layout_doc. cbn [strip_all blank]. f_equal.
  rewrite strip_all_app.
  (* the line break before a top-level statement is the indentation text of level 0 *)
  change [10] with (10 :: sp 0) at 1. rewrite (proj2 strip_layout_both l Hp Hd).
  apply app_nil_r.
Qed.

(* a test for the hypothesis on comment text: where it answers false, the end mark does not occur *)
Fixpoint has_cend (s : str) : bool :=
  match s with [] => false | _ :: t => startswith [45;45;62] s || has_cend t end.

Lemma has_cend_false s : has_cend s = false -> no_cend s.
Proof.
  intros H p q ->. induction p as [|a p IH]; [simpl in H; discriminate|].
  apply IH. simpl in H. apply orb_false_iff in H as [_ H]. exact H.
Qed.

Lemma cut_ctx t a body : cut (SCtx t a body) = ([SCtx t a (fst (cutl body))], snd (cutl body)).
Proof.
  change (cut (SCtx t a body)) with (let '(b', r) := cutl body in ([SCtx t a b'], r)).
  destruct (cutl body). reflexivity.
Qed.

Lemma cutl_cons x l :
  cutl (x :: l) = if snd (cut x) then cut x else (fst (cut x) ++ fst (cutl l), snd (cutl l)).
Proof. simpl. destruct (cut x) as [x' []]; [reflexivity|]. destruct (cutl l). reflexivity. Qed.

Definition cut_ok (p : stmt) : Prop :=
  forallb pure (fst (cut p)) = true /\
  forall st, exec p st = (appended st (flat_map (rs (w_indent st)) (fst (cut p))), snd (cut p)).

Lemma flat_map_rs_app i a b : flat_map (rs i) (a ++ b) = flat_map (rs i) a ++ flat_map (rs i) b.
Proof. apply flat_map_app. Qed.

Lemma cut_both :
  (forall p, ctx_only p = true -> cut_ok p) /\
  (forall l, forallb ctx_only l = true ->
     forallb pure (fst (cutl l)) = true /\
     forall st, exec_list l st = (appended st (flat_map (rs (w_indent st)) (fst (cutl l))), snd (cutl l))).
Proof.
  apply stmt_list_ind.
  - intros t a d _. split; [reflexivity|]. intro st. simpl. rewrite app_nil_r. reflexivity.
  - intros x _. split; [reflexivity|]. intro st. simpl. rewrite app_nil_r. reflexivity.
  - intros t a body IH Hc. destruct (IH Hc) as [Hpb Heb]. unfold cut_ok. rewrite cut_ctx. cbn [fst snd]. split.
    + cbn [forallb pure]. rewrite Hpb. reflexivity.
    + intro st. cbn [flat_map]. rewrite app_nil_r. apply exec_ctx, Heb.
  - discriminate.
  - discriminate.
  - intros _. split; [reflexivity|]. intro st. simpl. rewrite appended_nil. reflexivity.
  - split; [reflexivity|]. intro st. simpl. rewrite appended_nil. reflexivity.
  - intros x l Hx Hl [Hcx Hcl]%andb_true_iff.
    destruct (Hx Hcx) as [Hpx Hex], (Hl Hcl) as [Hpl Hel]. rewrite cutl_cons. cbn [exec_list].
    destruct (snd (cut x)) eqn:Er.
    + split; [exact Hpx|]. intro st. rewrite Hex, Er. reflexivity.
    + cbn [fst snd]. split; [rewrite forallb_app, Hpx, Hpl; reflexivity|].
      intro st. rewrite Hex, Hel, appended_app, flat_map_app. reflexivity.
Qed.

Theorem cut_spec : forall p, ctx_only p = true -> cut_ok p.
Proof. apply cut_both. Qed.

Lemma wf_cut_both :
  (forall p, wf p -> Forall wf (fst (cut p))) /\ (forall l, Forall wf l -> Forall wf (fst (cutl l))).
Proof.
  apply stmt_list_ind.
  - intros t a d H. exact (Forall_cons _ H (Forall_nil _)).
  - intros x H. exact (Forall_cons _ H (Forall_nil _)).
  - intros t a body IH (Ht & Ha & Hwb)%wf_ctx. rewrite cut_ctx.
    apply Forall_cons; [|apply Forall_nil]. apply wf_ctx. exact (conj Ht (conj Ha (IH Hwb))).
  - intros t a H. exact (Forall_cons _ H (Forall_nil _)).
  - intro H. exact (Forall_cons _ H (Forall_nil _)).
  - constructor.
  - constructor.
  - intros x l Hx Hl [Hwx Hwl]%Forall_cons_iff. rewrite cutl_cons.
    destruct (snd (cut x)); [apply Hx, Hwx|]. apply Forall_app. exact (conj (Hx Hwx) (Hl Hwl)).
Qed.

Lemma events_ctx t a body :
  events (SCtx t a body) = (EOpen t a :: fst (events_list body) ++ [EClose t], snd (events_list body)).
Proof.
  change (events (SCtx t a body)) with (let '(evs, r) := events_list body in (EOpen t a :: evs ++ [EClose t], r)).
  destruct (events_list body). reflexivity.
Qed.

Lemma events_list_cons x l :
  events_list (x :: l) =
  if snd (events x) then events x else (fst (events x) ++ fst (events_list l), snd (events_list l)).
Proof. simpl. destruct (events x) as [e []]; [reflexivity|]. destruct (events_list l). reflexivity. Qed.

Lemma render_app e2 e1 : forall ind,
  render ind (e1 ++ e2) =
  let '(s1, i1) := render ind e1 in let '(s2, i2) := render i1 e2 in (s1 ++ s2, i2).
Proof.
  induction e1 as [|e t IH]; intro ind; simpl.
  - destruct (render ind e2). reflexivity.
  - destruct (render_event ind e) as [s0 i0]. rewrite IH.
    destruct (render i0 t) as [s1 i1]. destruct (render i1 e2) as [s2 i2].
    rewrite app_assoc. reflexivity.
Qed.

Lemma check_app e2 e1 : forall s,
  check (e1 ++ e2) s = match check e1 s with Some s' => check e2 s' | None => None end.
Proof.
  induction e1 as [|e t IH]; intro s; simpl; [reflexivity|].
  destruct e as [| tag | |]; try apply IH.
  destruct s as [|t' s']; [reflexivity|]. destruct (str_eqb tag t'); [apply IH|reflexivity].
Qed.

(* The events of a program that may abort are those of what it gets to write: they render to the same text,
   leave the indentation where it was, and are well bracketed. *)
Definition events_ok (ev : list event * bool) (c : list stmt * bool) : Prop :=
  snd ev = snd c /\
  (forall i, render i (fst ev) = (flat_map (rs i) (fst c), i)) /\
  forall stk, check (fst ev) stk = Some stk.

Lemma events_cut_both :
  (forall p, ctx_only p = true -> events_ok (events p) (cut p)) /\
  (forall l, forallb ctx_only l = true -> events_ok (events_list l) (cutl l)).
Proof.
  apply stmt_list_ind.
  - intros t a d _. repeat split.
  - intros x _. split; [reflexivity|]. split; [|reflexivity].
    intro i. simpl. unfold sp. rewrite <- !app_assoc. reflexivity.
  - intros t a body IH Hc. destruct (IH Hc) as (Hr & Hrn & Hck). rewrite events_ctx, cut_ctx.
    split; [exact Hr|]. cbn [fst]. split.
    + intro i. cbn [render render_event]. rewrite render_app, Hrn. cbn [render render_event flat_map rs].
      rewrite Z.add_simpl_r. unfold sp. rewrite !app_nil_r, <- !app_assoc. reflexivity.
    + intro stk. cbn [check]. rewrite check_app, Hck. cbn [check]. rewrite str_eqb_refl. reflexivity.
  - discriminate.
  - discriminate.
  - repeat split.
  - repeat split.
  - intros x l Hx Hl [Hcx Hcl]%andb_true_iff.
    destruct (Hx Hcx) as (Ex & Rx & Cx), (Hl Hcl) as (El & Rl & Cl).
    rewrite events_list_cons, cutl_cons, Ex. destruct (snd (cut x)); [apply Hx, Hcx|].
    split; [exact El|]. cbn [fst]. split.
    + intro i. rewrite render_app, Rx, Rl, flat_map_app. reflexivity.
    + intro stk. rewrite check_app, Cx. apply Cl.
Qed.
