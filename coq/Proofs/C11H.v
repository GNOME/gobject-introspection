From Coq Require Import List.
From GIV.Lib Require Import Str.
From GIV.Model Require Import C10B.

(* C11, "a malformed annotation is ignored rather than half-applied": looking up the parameter in progress and finding it again
   after step_cont has replaced it (part_get, part_set of Model/C10B.v); the reasoning about step_cont itself is in Props/C11.v,
   C11_malformed_continuation_not_applied *)

Lemma part_get_name : forall l k p, part_get l k = Some p -> pt_name p = k.
Proof.
  induction l as [|a t IH]; intros k p H; cbn [part_get] in H; [discriminate|].
  destruct (str_eqb_spec (pt_name a) k) as [E|_]; [injection H as <-; exact E|apply IH; exact H].
Qed.

Lemma part_get_set : forall l p p', part_get l (pt_name p') = Some p -> part_get (part_set l p') (pt_name p') = Some p'.
Proof.
  induction l as [|a t IH]; intros p p' H; cbn [part_get] in H; [discriminate|]. cbn [part_set].
  destruct (str_eqb (pt_name a) (pt_name p')) eqn:E; cbn [part_get].
  - rewrite str_eqb_refl. reflexivity.
  - rewrite E. exact (IH _ _ H).
Qed.
