From Coq Require Import List Arith NArith Bool String Lia.
From GIV.Lib Require Import Str.
From GIV.Model Require Import C02 C04.
Import ListNotations.

Lemma to_lower_not_upper c : is_upper (to_lower c) = false.
Proof.
  unfold to_lower, is_upper. destruct (N.leb 65 c && N.leb c 90) eqn:E; [|exact E].
  apply andb_true_iff in E as [A%N.leb_le _]. apply andb_false_iff. right. apply N.leb_gt. lia.
Qed.

Example uscore_examples :
  uscore_noprefix (s "TextBuffer") = s "text_buffer" /\ uscore_noprefix (s "GIOThing") = s "gio_thing"
  /\ uscore_noprefix (s "X2Y") = s "x2_y" /\ uscore_noprefix (s "Rec") = s "rec" /\ uscore_noprefix (s "DBusFoo") = s "dbus_foo".
Proof. vm_compute. repeat split; reflexivity. Qed.

Lemma join_us_eq l : join_us l = join [us] l.
Proof. induction l as [|x t IH]; [reflexivity|]. cbn. rewrite IH. reflexivity. Qed.

Lemma join_split_aux x cur : join_us (split_us x cur) = rev cur ++ x.
Proof. rewrite join_us_eq. apply (join_split us split_us); reflexivity. Qed.

Lemma join_us_app a b : a <> [] -> b <> [] -> join_us (a ++ b) = join_us a ++ us :: join_us b.
Proof. rewrite !join_us_eq. apply join_app. Qed.

Lemma split_by_type_aux_spec types comps : forall k t suffix,
  split_by_type_aux types comps k = Some (t, suffix) ->
  exists j, (0 < j <= k)%nat /\ uscore_lookup types (join_us (firstn j comps)) None = Some t
            /\ suffix = join_us (skipn j comps)
            /\ forall j', (j < j' <= k)%nat -> uscore_lookup types (join_us (firstn j' comps)) None = None.
Proof.
  induction k as [|k IH]; intros t suffix H; [discriminate|].
  cbn [split_by_type_aux] in H.
  destruct (uscore_lookup types (join_us (firstn (S k) comps)) None) as [t0|] eqn:E.
  - injection H as -> <-. exists (S k). repeat split; try assumption; lia.
  - destruct (IH t suffix H) as (j & Hj & Hl & Hs & Hmax). exists j. repeat split; try assumption; try lia.
    intros j' Hj'. destruct (Nat.eq_dec j' (S k)) as [->|N]; [exact E | apply Hmax; lia].
Qed.

(* the four sources of a function's place, in the order in which _pair_function tries them *)
Lemma pair_function_cases types f p : pair_function types f = p ->
  p = PTop (fn_sub f)
  \/ (exists origin n, is_constructor types f = Some (origin, n) /\ p = PConstructor (t_name origin) n)
  \/ as_method types f = Some p \/ as_static types f = Some p.
Proof.
  unfold pair_function. intros <-. destruct (is_type_meta f); [auto|].
  destruct (is_constructor types f) as [[origin n]|]; [right; left; eauto|].
  destruct (as_method types f); [auto|]. destruct (as_static types f); auto.
Qed.

Lemma as_static_shape types f p : as_static types f = Some p -> exists o n c, p = PStatic o n c.
Proof.
  unfold as_static. destruct (split_by_type types (fn_sub f)) as [[t name]|]; [|discriminate].
  destruct name; [discriminate|]. destruct (t_kind t); intros [= <-]; eauto.
Qed.

Lemma as_method_shape types f p : as_method types f = Some p -> exists o n, p = PMethod o n \/ p = PMovedMethod o n.
Proof.
  unfold as_method. destruct (fn_first f) as [[ft depth]|]; [|discriminate].
  destruct (find_type types ft) as [target|]; [|discriminate].
  destruct (negb (can_have_methods target)); [discriminate|]. destruct (Nat.ltb 1 depth); [discriminate|].
  destruct (fn_ann_method f); [intros [= <-]; eauto|].
  destruct (negb (startswith _ (fn_sub f))); [discriminate|]. destruct (startswith _ (fn_sub f)); intros [= <-]; eauto.
Qed.

(* the last test of _is_constructor: the origin is the returned type itself ([same]) or, for a
   class, one of its descendants ([inherits]) *)
Lemma returns_origin_spec {A} (k : tkind) (same inherits : bool) (r res : A) :
  match k with
  | TClass => if same || inherits then Some r else None
  | _ => if same then Some r else None
  end = Some res ->
  res = r /\ (same = true \/ (k = TClass /\ inherits = true)).
Proof.
  destruct same; [destruct k; intros [= <-]; auto|].
  destruct k; try discriminate. destruct inherits; [intros [= <-]; auto | discriminate].
Qed.
