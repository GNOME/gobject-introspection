From Coq Require Import List ZArith Bool Lia.
From GIV.Lib Require Import Regex Str.
From GIV.Model Require Import C17.
Import ListNotations.
Local Open Scope Z_scope.

(* the three outcomes of compare_version, each with the lexicographic fact it stands for *)
Inductive version_order (a1 a2 b1 b2 : Z) : Z -> Prop :=
| VGreater : b1 < a1 \/ (a1 = b1 /\ b2 < a2) -> version_order a1 a2 b1 b2 1
| VLess : a1 < b1 \/ (a1 = b1 /\ a2 < b2) -> version_order a1 a2 b1 b2 (-1)
| VEqual : a1 = b1 -> a2 = b2 -> version_order a1 a2 b1 b2 0.

Lemma compare_version_spec a1 a2 b1 b2 : version_order a1 a2 b1 b2 (compare_version (a1, a2) (b1, b2)).
Proof.
  unfold compare_version.
  destruct (Z.ltb_spec b1 a1); [apply VGreater; lia|].
  destruct (Z.ltb_spec a1 b1); [apply VLess; lia|].
  destruct (Z.ltb_spec b2 a2); [apply VGreater; lia|].
  destruct (Z.ltb_spec a2 b2); [apply VLess; lia|apply VEqual; lia].
Qed.

(* key of a candidate: numeric (major, minor) and the index of its directory *)
Definition ckey (c : candidate) : Z * Z * Z := (fst (pv c.(c_version)), snd (pv c.(c_version)), Z.of_nat c.(c_index)).
Definition better (k1 k2 : Z * Z * Z) : Prop :=
  let '(a1, a2, i1) := k1 in let '(b1, b2, i2) := k2 in
  b1 < a1 \/ (a1 = b1 /\ (b2 < a2 \/ (a2 = b2 /\ i1 < i2))).

Lemma cand_before_spec c1 c2 : cand_before c1 c2 = true <-> better (ckey c1) (ckey c2).
Proof.
  unfold cand_before, ckey, better. destruct (pv (c_version c1)) as [a1 a2], (pv (c_version c2)) as [b1 b2]. cbn [fst snd].
  destruct (compare_version_spec a1 a2 b1 b2) as [H|H|H1 H2]; cbn [Z.ltb Z.compare].
  - split; [lia|reflexivity].
  - split; [discriminate|lia].
  - rewrite Nat.ltb_lt. lia.
Qed.

Lemma better_irrefl k : ~ better k k.
Proof. destruct k as [[a b] i]. unfold better. lia. Qed.
Lemma better_trans k1 k2 k3 : better k1 k2 -> better k2 k3 -> better k1 k3.
Proof. destruct k1 as [[a1 a2] i1], k2 as [[b1 b2] i2], k3 as [[c1 c2] i3]. unfold better. lia. Qed.

Lemma elect_from_in l : forall best, In (elect_from best l) (best :: l).
Proof.
  induction l as [|c t IH]; intro best; cbn [elect_from]; [left; reflexivity|].
  destruct (IH (if cand_before c best then c else best)) as [<-|H]; [|right; right; exact H].
  destruct (cand_before c best); simpl; auto.
Qed.

(* the final choice is at least as good as every candidate still to come, and as everything
   the running choice is at least as good as *)
Lemma elect_from_max l : forall best x,
  ~ better (ckey x) (ckey best) \/ In x l -> ~ better (ckey x) (ckey (elect_from best l)).
Proof.
  induction l as [|c t IH]; intros best x Hx; cbn [elect_from]; [destruct Hx as [Hx|[]]; exact Hx|].
  apply IH. destruct Hx as [Hx|[<-|Hx]]; [left|left|right; exact Hx].
  - destruct (cand_before c best) eqn:E; [|exact Hx].
    apply cand_before_spec in E. intro H. apply Hx. exact (better_trans _ _ _ H E).
  - destruct (cand_before c best) eqn:E; [apply better_irrefl|].
    rewrite <- cand_before_spec, E. discriminate.
Qed.

(* the elected candidate: none of the candidates is better (higher version, or equal
   version from an earlier directory) *)
Theorem elect_spec l c : elect l = Some c ->
  In c l /\ forall x, In x l -> ~ better (ckey x) (ckey c).
Proof.
  destruct l as [|c0 t]; [discriminate|]. simpl. intros [= <-]. split; [apply elect_from_in|].
  intros x [<-|Hx]; apply elect_from_max; [left; apply better_irrefl|right; exact Hx].
Qed.
Theorem elect_none l : elect l = None <-> l = [].
Proof. destruct l; simpl; split; congruence. Qed.

Definition has_file (fsys : fs) (d name : str) : Prop :=
  exists dd c, lookup_dir fsys d = Some dd /\ lookup_file dd name = Some c.

(* the first directory answers if it has the file, and is skipped if not; the first case is has_file with its
   witnesses kept, because the answer names the content c *)
Lemma find_version_cons fsys d t name :
  (exists dd c, lookup_dir fsys d = Some dd /\ lookup_file dd name = Some c /\ find_version fsys (d :: t) name = Some (d, c)) \/
  (~ has_file fsys d name /\ find_version fsys (d :: t) name = find_version fsys t name).
Proof.
  simpl. destruct (lookup_dir fsys d) as [dd|] eqn:Ed; [destruct (lookup_file dd name) as [c|] eqn:Ef|].
  1: left; exists dd, c; auto.
  (* the directory has no such file, or cannot be read *)
  all: right; split; [|reflexivity]; intros (dd2 & c2 & H1 & H2); congruence.
Qed.

Lemma lookup_file_in dd name c : lookup_file dd name = Some c -> In (name, c) dd.
Proof.
  induction dd as [|[n x] t IH]; simpl; [discriminate|]. destruct (str_eqb_spec n name) as [->|_].
  - intros [= <-]. left; reflexivity.
  - intro H. right. exact (IH H).
Qed.

(* contents that lie in a directory of the file system: all that a search can find *)
Definition stored (fsys : fs) (c : content) : Prop :=
  exists d dd name, lookup_dir fsys d = Some dd /\ In (name, c) dd.

Lemma find_version_stored fsys name d c : forall path, find_version fsys path name = Some (d, c) -> stored fsys c.
Proof.
  induction path as [|x t IH]; [discriminate|].
  destruct (find_version_cons fsys x t name) as [(dd & c' & Hd & Hf & ->)|[_ ->]]; [|exact IH].
  intros [= <- <-]. exists x, dd, name. split; [exact Hd|apply lookup_file_in; exact Hf].
Qed.

Lemma scan_dir_Forall (Q : content -> Prop) nd idx dname entries :
  Forall (fun e => Q (snd e)) entries -> forall found acc,
  Forall (fun c => Q c.(c_content)) acc -> Forall (fun c => Q c.(c_content)) (snd (scan_dir nd idx dname entries found acc)).
Proof.
  induction 1 as [|[entry ct] t Hct _ IH]; intros found acc Hacc; simpl; [exact Hacc|].
  (* the entry is skipped, or it becomes a candidate in front of [acc] *)
  destruct (negb _ || negb _), (parse_version (entry_version entry)), (existsb (str_eqb (entry_version entry)) found);
    apply IH; try exact Hacc.
  constructor; [exact Hct|exact Hacc].
Qed.

Lemma enumerate_stored fsys nd : forall path idx found acc,
  Forall (fun c => stored fsys c.(c_content)) acc ->
  Forall (fun c => stored fsys c.(c_content)) (enumerate fsys nd path idx found acc).
Proof.
  induction path as [|d t IH]; intros idx found acc Hacc; simpl; [exact Hacc|].
  destruct (lookup_dir fsys d) as [entries|] eqn:Ed; [|apply IH; exact Hacc].
  assert (He : Forall (fun e => stored fsys (snd e)) entries).
  { apply Forall_forall. intros [entry ct] Hin. exists d, entries, entry. auto. }
  pose proof (scan_dir_Forall _ nd idx d entries He found acc Hacc) as Hs.
  destruct (scan_dir nd idx d entries found acc) as [found' acc']. apply IH, Hs.
Qed.

Definition deps_ok (st : state) (tf : tfile) : Prop :=
  forall dn dv, In (dn, dv) tf.(f_deps) ->
    exists l, get_registered st dn = Some l /\ l.(l_file).(f_version) = dv.
(* every loaded namespace was loaded from a file that names it, and each dependency recorded
   in that file is loaded at the recorded version *)
Definition Inv (st : state) : Prop :=
  forall l, In l st -> l.(l_ns) = l.(l_file).(f_ns) /\ deps_ok st l.(l_file).

Lemma get_registered_app st x ns :
  get_registered (st ++ x) ns =
  match get_registered st ns with Some l => Some l | None => get_registered x ns end.
Proof.
  induction st as [|l t IH]; simpl; [reflexivity|]. destruct (str_eqb (l_ns l) ns); [reflexivity|exact IH].
Qed.
Lemma get_registered_ns st ns l : get_registered st ns = Some l -> l.(l_ns) = ns /\ In l st.
Proof.
  induction st as [|x t IH]; simpl; [discriminate|]. destruct (str_eqb_spec (l_ns x) ns) as [E|_].
  - intros [= <-]. auto.
  - intro H. destruct (IH H). auto.
Qed.
Lemma insert_new e st : get_registered st e.(l_ns) = None -> insert e st = st ++ [e].
Proof.
  induction st as [|x t IH]; simpl; [reflexivity|]. destruct (str_eqb (l_ns x) (l_ns e)); [discriminate|].
  intro H. rewrite IH by exact H. reflexivity.
Qed.
Lemma deps_ok_app st x tf : deps_ok st tf -> deps_ok (st ++ x) tf.
Proof.
  intros H dn dv Hin. destruct (H dn dv Hin) as (l & Hl & Hv). exists l. rewrite get_registered_app, Hl. auto.
Qed.

Lemma inv_register st tf p : Inv st -> deps_ok st tf -> Inv (st ++ [{| l_ns := tf.(f_ns); l_file := tf; l_path := p |}]).
Proof.
  intros Hinv Hd l Hin. apply in_app_iff in Hin as [Hin|[<-|[]]].
  - destruct (Hinv l Hin) as [Ha Hb]. split; [exact Ha|apply deps_ok_app; exact Hb].
  - split; [reflexivity|apply deps_ok_app; exact Hd].
Qed.

Section Invariant.
  Variable fsys : fs.
  Variable gpath : list str.
  Variable rank : str -> nat.

  Definition ranked (tf : tfile) : Prop := forall dn dv, In (dn, dv) tf.(f_deps) -> (rank dn < rank tf.(f_ns))%nat.
  (* the dependency graph of the files on disk is acyclic: a rank decreases along dependencies *)
  Definition fs_ranked : Prop :=
    forall d dd name tf, lookup_dir fsys d = Some dd -> In (name, Some tf) dd -> ranked tf.

  (* the dependency loop of register_internal as a function of its own, so written that
     register unfolds to it *)
  Definition deps_loop (f : nat) : list (str * str) -> state -> state * option Z :=
    fix deps l st :=
      match l with
      | [] => (st, None)
      | (dn, dv) :: t => match require fsys gpath f st gpath dn (Some dv) with
                         | (st', ROk _) => deps t st'
                         | (st', RErr e) => (st', Some e)
                         end
      end.
  Lemma register_unfold f st tf p :
    register fsys gpath (S f) st tf p =
    match deps_loop f tf.(f_deps) st with
    | (st', Some e) => (st', RErr e)
    | (st', None) => (insert {| l_ns := tf.(f_ns); l_file := tf; l_path := p |} st', ROk tf.(f_version))
    end.
  Proof. reflexivity. Qed.

  (* [st'] is [st] with namespaces of rank below [b] loaded behind it, and satisfies the invariant *)
  Definition grows (b : nat) (st st' : state) : Prop :=
    exists added, st' = st ++ added /\ Forall (fun l => (rank l.(l_ns) < b)%nat) added /\ Inv st'.

  Lemma inv_app_nil st : Inv st -> exists added : state, st = st ++ added /\ added = [].
  Proof. intros _. exists []. rewrite app_nil_r. auto. Qed.

  Lemma grows_refl {b st} : Inv st -> grows b st st.
  Proof. intro H. exists []. rewrite app_nil_r. auto. Qed.
  Lemma grows_trans {b st1 st2 st3} : grows b st1 st2 -> grows b st2 st3 -> grows b st1 st3.
  Proof.
    intros (a1 & -> & H1 & _) (a2 & -> & H2 & Hinv). exists (a1 ++ a2). rewrite app_assoc, Forall_app. auto.
  Qed.
  Lemma grows_le {b st st'} b' : (b <= b')%nat -> grows b st st' -> grows b' st st'.
  Proof.
    intros Hb (a & -> & H & Hinv). exists a. split; [reflexivity|]. split; [|exact Hinv].
    apply (Forall_impl _ (fun l Hl => Nat.lt_le_trans _ _ _ Hl Hb) H).
  Qed.
  Lemma grows_inv {b st st'} : grows b st st' -> Inv st'.
  Proof. intros (_ & _ & _ & H). exact H. Qed.
  (* a namespace whose rank is not below the bound is not among those added *)
  Lemma grows_none {b st st'} ns :
    grows b st st' -> (b <= rank ns)%nat -> get_registered st ns = None -> get_registered st' ns = None.
  Proof.
    intros (a & -> & Ha & _) Hb H. rewrite get_registered_app, H.
    destruct (get_registered a ns) as [x|] eqn:Ex; [|reflexivity].
    apply get_registered_ns in Ex as [<- Hin]. rewrite Forall_forall in Ha. apply Ha in Hin. lia.
  Qed.

  (* what require and register promise of the pair they return: the state has grown by namespaces
     of rank below [b]; a version reported is the one asked for, if one was, and the one at which [ns] is now loaded *)
  Definition post (b : nat) (st : state) (ns : str) (ver : option str) (out : state * res) : Prop :=
    grows b st (fst out) /\
    forall v, snd out = ROk v ->
      (forall v0, ver = Some v0 -> v = v0) /\ exists l, get_registered (fst out) ns = Some l /\ l.(l_file).(f_version) = v.
  Definition req_spec (f : nat) : Prop := forall st path ns ver, Inv st ->
    post (S (rank ns)) st ns ver (require fsys gpath f st path ns ver).
  Definition reg_spec (f : nat) : Prop := forall st tf p, Inv st -> ranked tf -> get_registered st tf.(f_ns) = None ->
    post (S (rank tf.(f_ns))) st tf.(f_ns) (Some tf.(f_version)) (register fsys gpath f st tf p).

  (* the exits that report an error leave the state as it is *)
  Lemma error_post b st ns ver e : Inv st -> post b st ns ver (st, RErr e).
  Proof. intro H. split; [exact (grows_refl H)|discriminate]. Qed.

  (* the loop stops at the first dependency that fails; if none does, all of them are loaded *)
  Lemma deps_loop_post f b : req_spec f -> forall l st,
    Inv st -> (forall dn dv, In (dn, dv) l -> (rank dn < b)%nat) ->
    let out := deps_loop f l st in
    grows b st (fst out) /\
    (snd out = None -> forall dn dv, In (dn, dv) l -> exists x, get_registered (fst out) dn = Some x /\ x.(l_file).(f_version) = dv).
  Proof.
    intros Hreq. induction l as [|[dn dv] t IH]; intros st Hinv Hr; cbn [deps_loop].
    - split; [exact (grows_refl Hinv)|]. intros _ dn dv [].
    - destruct (Hreq st gpath dn (Some dv) Hinv) as [Hg1 Hok1].
      apply (grows_le b) in Hg1; [|apply (Hr dn dv); left; reflexivity].
      destruct (require fsys gpath f st gpath dn (Some dv)) as [s1 [v1|e1]]; cbn [fst snd] in *; [|split; [exact Hg1|discriminate]].
      destruct (IH s1 (grows_inv Hg1) (fun a b Hin => Hr a b (or_intror Hin))) as [Hg2 Hok2].
      split; [exact (grows_trans Hg1 Hg2)|]. intros He dn' dv' [[= <- <-]|Hin]; [|exact (Hok2 He dn' dv' Hin)].
      (* what the head loaded stays loaded behind what the tail adds *)
      destruct (Hok1 v1 eq_refl) as [Hv (x & Hx & <-)], Hg2 as (a2 & -> & _).
      exists x. rewrite get_registered_app, Hx. auto.
  Qed.

  Lemma register_post f : req_spec f -> reg_spec (S f).
  Proof.
    intros Hreq st tf p Hinv Hrk Hnone. rewrite register_unfold.
    destruct (deps_loop_post f (rank (f_ns tf)) Hreq (f_deps tf) st Hinv Hrk) as [Hg1 Hok1].
    pose proof (grows_le (S (rank (f_ns tf))) (Nat.le_succ_diag_r _) Hg1) as Hg1'.
    destruct (deps_loop f (f_deps tf) st) as [s1 [e|]]; cbn [fst snd] in *; [split; [exact Hg1'|discriminate]|].
    (* the dependencies rank below the namespace: it is still not loaded *)
    pose proof (grows_none _ Hg1 (le_n _) Hnone) as Hnone1.
    rewrite insert_new by exact Hnone1. split; cbn [fst snd].
    - apply (grows_trans Hg1'). eexists. split; [reflexivity|]. split; [repeat constructor|].
      apply inv_register; [exact (grows_inv Hg1)|exact (Hok1 eq_refl)].
    - intros v [= <-]. split; [intros v0 [= <-]; reflexivity|]. eexists.
      rewrite get_registered_app, Hnone1. simpl. rewrite str_eqb_refl. split; reflexivity.
  Qed.

  (* what require_internal does with the file its search found, [nv] being the version in the file's name *)
  Lemma load_post f st ns ver p nv c : fs_ranked -> reg_spec f -> Inv st -> get_registered st ns = None ->
    stored fsys c -> (forall v, ver = Some v -> nv = v) ->
    post (S (rank ns)) st ns ver
      match c with
      | None => (st, RErr 0)
      | Some tf => if negb (str_eqb tf.(f_ns) ns) then (st, RErr 1)
                   else if negb (str_eqb tf.(f_version) nv) then (st, RErr 1)
                   else register fsys gpath f st tf p
      end.
  Proof.
    intros Hfs Hreg Hinv Hnone (d & dd & name & Hd & Hin) Hver. destruct c as [tf|]; [|apply error_post; exact Hinv].
    destruct (str_eqb_spec (f_ns tf) ns) as [<-|_]; [|apply error_post; exact Hinv].
    destruct (str_eqb_spec (f_version tf) nv) as [<-|_]; [|apply error_post; exact Hinv].
    destruct (Hreg st tf p Hinv (Hfs _ _ _ _ Hd Hin) Hnone) as [Hg Hok].
    split; [exact Hg|]. intros v Hv. destruct (Hok v Hv) as [Hv' Hl]. pose proof (Hv' _ eq_refl) as ->. split; [exact Hver|exact Hl].
  Qed.

  Lemma require_post f : fs_ranked -> reg_spec f -> req_spec (S f).
  Proof.
    intros Hfs Hreg st path ns ver Hinv. simpl. destruct (get_registered st ns) as [l|] eqn:Eg; destruct ver as [v0|].
    - destruct (str_eqb_spec v0 (f_version (l_file l))) as [->|_]; [|apply error_post; exact Hinv].
      split; [exact (grows_refl Hinv)|]. intros v [= <-]. split; [intros v1 [= ->]; reflexivity|exists l; auto].
    - split; [exact (grows_refl Hinv)|]. intros v [= <-]. split; [discriminate|exists l; auto].
    - destruct (find_version fsys path (fname ns v0)) as [[d c]|] eqn:Ef; [|apply error_post; exact Hinv].
      apply load_post; try assumption; [|intros v [= ->]; reflexivity]. eapply find_version_stored, Ef.
    - destruct (elect (enumerate fsys (ns ++ [45%N]) path 0%nat [] [])) as [x|] eqn:Ee; [|apply error_post; exact Hinv].
      apply load_post; try assumption; [|discriminate]. apply elect_spec in Ee as [Hin _].
      revert x Hin. apply Forall_forall, enumerate_stored. constructor.
  Qed.

  Theorem require_inv : fs_ranked -> forall f, req_spec f.
  Proof.
    intros Hfs f. enough (H : req_spec f /\ reg_spec f) by apply H.
    induction f as [|f [IHreq IHreg]]; split.
    - intros st path ns ver Hinv. apply error_post; exact Hinv.
    - intros st tf p Hinv _ _. apply error_post; exact Hinv.
    - apply require_post; assumption.
    - apply register_post; assumption.
  Qed.
End Invariant.

Definition op_plain (o : op) : Prop := match o with OLoad _ => False | _ => True end.

Theorem step_inv fsys base rank : fs_ranked fsys rank ->
  forall w o, Inv (snd w) -> op_plain o -> Inv (snd (fst (step fsys base w o))).
Proof.
  intros Hfs [pre st] o Hinv Hp. cbn [snd] in Hinv.
  (* a require along the global path and one along a private path differ in [path] only *)
  assert (H : forall path ns v,
             Inv (snd (fst (let '(st', r) := require fsys (pre ++ base) fuel0 st path ns v in ((pre, st'), Some r))))).
  { intros path ns v. destruct (require_inv fsys (pre ++ base) rank Hfs fuel0 st path ns v Hinv) as [Hg _].
    destruct (require fsys (pre ++ base) fuel0 st path ns v) as [st' r]. exact (grows_inv _ Hg). }
  destruct o as [d|ns v|d ns v|tf]; [exact Hinv|apply H|apply H|contradiction].
Qed.
