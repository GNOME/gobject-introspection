From Coq Require Import List Arith NArith String Lia.
From GIV.Lib Require Import Regex Str Facts.
From GIV.Model Require Import C02 C12.
Import ListNotations.
Local Open Scope N_scope.

Lemma flags_low_bits f : decode_flags f = decode_flags (f mod 16).
Proof.
  unfold decode_flags. change 16 with (2 ^ 4).
  f_equal; symmetry; apply N.mod_pow2_bits_low; lia.
Qed.

Lemma flags_roundtrip p others : decode_flags (encode_flags p others) = p.
Proof.
  rewrite flags_low_bits. unfold encode_flags. rewrite (N.mul_comm 16), N.mod_add by discriminate.
  destruct p as [[] [] [] []]; reflexivity.
Qed.

Lemma nearest_known_spec k chain n :
  nearest_known k chain = Some n ->
  exists pre g post, chain = pre ++ g :: post /\ kfind k g = Some n /\ Forall (fun x => kfind k x = None) pre.
Proof.
  induction chain as [|g t IH]; [discriminate|]. cbn.
  destruct (kfind k g) as [m|] eqn:E.
  - intros [= ->]. exists [], g, t. auto.
  - intros (pre & g' & post & -> & Hk & Hp)%IH. exists (g :: pre), g', post. auto.
Qed.

Lemma nearest_known_none k chain :
  nearest_known k chain = None <-> Forall (fun x => kfind k x = None) chain.
Proof.
  induction chain as [|g t IH]; cbn; [split; [constructor|reflexivity]|].
  rewrite Forall_cons_iff, <- IH. destruct (kfind k g); [split; [discriminate|intros [[=] _]] | tauto].
Qed.

Lemma strip_suffix_app suf p : strip_suffix suf (p ++ suf) = Some p.
Proof. unfold strip_suffix. rewrite endswith_app, app_length, Nat.add_sub, firstn_app_exact. reflexivity. Qed.

Lemma strip_get_type_of_get_gtype p : strip_suffix (s "_get_type") (p ++ s "_get_gtype") = None.
Proof. unfold strip_suffix, endswith. rewrite rev_app_distr. reflexivity. Qed.

Lemma symbol_prefix_app ns rest :
  symbol_prefix ns (ns ++ rest) =
  match strip_suffix (s "_get_type") rest with Some p => Some p | None => strip_suffix (s "_get_gtype") rest end.
Proof. unfold symbol_prefix. rewrite startswith_app, skipn_app_exact. reflexivity. Qed.

Lemma signal_param_names_length n : List.length (signal_param_names n) = n.
Proof. unfold signal_param_names. rewrite map_length. apply seq_length. Qed.

(* the first of the candidate names that some structure carries *)
Lemma type_struct_eq recs is_class l :
  type_struct recs is_class l =
  find (fun n => existsb (fun r => str_eqb (wr_name r) n) recs)
       (if is_class then [l ++ s "Class"] else [l ++ s "Iface"; l ++ s "Interface"]).
Proof. destruct is_class; reflexivity. Qed.

Definition owns (recs : list wrecord) (d : dtype) (t : str) : bool :=
  match d with
  | DClass g _ _ _ _ _ _ _ => match type_struct recs true (local_of g) with Some x => str_eqb x t | None => false end
  | DInterface g _ _ _ _ => match type_struct recs false (local_of g) with Some x => str_eqb x t | None => false end
  | DBoxed _ _ => false
  end.

(* the back link of a structure names the first type of the dump whose type structure it is *)
Lemma struct_for_eq ns recs dump r :
  or_struct_for (merge_record ns recs dump r)
  = option_map (fun d => local_of (dname d)) (find (fun d => owns recs d (wr_name r)) dump).
Proof. reflexivity. Qed.

Lemma no_owner_no_link ns recs dump r :
  (forall d, In d dump -> owns recs d (wr_name r) = false) -> or_struct_for (merge_record ns recs dump r) = None.
Proof.
  intros H. rewrite struct_for_eq. destruct (find _ dump) as [d|] eqn:F; [|reflexivity].
  apply find_some in F as [Hin Hf]. rewrite (H d Hin) in Hf. discriminate.
Qed.

Definition is_get_type (dump : list dtype) (f : str) : bool :=
  existsb (fun d => match d with DClass _ gt _ _ _ _ _ _ | DInterface _ gt _ _ _ | DBoxed _ gt => str_eqb gt f end) dump.
