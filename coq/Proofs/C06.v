From Coq Require Import List NArith Bool Lia.
Import ListNotations.
Local Open Scope N_scope.

(* bit fields of a blob seen as one little-endian integer *)
Definition getbits (x o w : N) : N := N.land (N.shiftr x o) (N.ones w).
Definition setbits (x o w v : N) : N :=
  N.lor (N.ldiff x (N.shiftl (N.ones w) o)) (N.shiftl (N.land v (N.ones w)) o).

Lemma ones_bit w n : N.testbit (N.ones w) n = (n <? w).
Proof. destruct (N.ltb_spec n w); [apply N.ones_spec_low|apply N.ones_spec_high]; assumption. Qed.

Lemma shl_bit a o n : N.testbit (N.shiftl a o) n = if n <? o then false else N.testbit a (n - o).
Proof. destruct (N.ltb_spec n o); [apply N.shiftl_spec_low|apply N.shiftl_spec_high']; assumption. Qed.

Lemma setbits_bit x o w v n :
  N.testbit (setbits x o w v) n =
  if (o <=? n) && (n <? o + w) then N.testbit v (n - o) else N.testbit x n.
Proof.
  unfold setbits. rewrite N.lor_spec, N.ldiff_spec, !shl_bit, N.land_spec, !ones_bit.
  destruct (N.ltb_spec n o), (N.leb_spec o n); try lia; simpl.
  - rewrite andb_true_r, orb_false_r. reflexivity.
  - destruct (N.ltb_spec (n - o) w), (N.ltb_spec n (o + w)); try lia; simpl.
    + rewrite andb_false_r, andb_true_r. reflexivity.
    + rewrite andb_true_r, andb_false_r, orb_false_r. reflexivity.
Qed.

Lemma getbits_bit x o w n : N.testbit (getbits x o w) n = N.testbit x (n + o) && (n <? w).
Proof. unfold getbits. rewrite N.land_spec, N.shiftr_spec', ones_bit. reflexivity. Qed.

Theorem get_set_other x o w v o2 w2 : (o2 + w2 <= o \/ o + w <= o2) ->
  getbits (setbits x o w v) o2 w2 = getbits x o2 w2.
Proof.
  intro Hd. apply N.bits_inj. intro n. rewrite !getbits_bit, setbits_bit.
  destruct (N.ltb_spec n w2); [|rewrite !andb_false_r; reflexivity].
  destruct (N.leb_spec o (n + o2)), (N.ltb_spec (n + o2) (o + w)); try lia; reflexivity.
Qed.

(* encoding a whole blob: members one after the other *)
Fixpoint encode (fields : list (N * N)) (values : list N) (x : N) : N :=
  match fields, values with
  | (o, w) :: ft, v :: vt => encode ft vt (setbits x o w v)
  | _, _ => x
  end.

Fixpoint disjoint_from (f : N * N) (l : list (N * N)) : Prop :=
  match l with
  | [] => True
  | g :: t => (fst g + snd g <= fst f \/ fst f + snd f <= fst g) /\ disjoint_from f t
  end.
Fixpoint pairwise_disjoint (l : list (N * N)) : Prop :=
  match l with [] => True | f :: t => disjoint_from f t /\ pairwise_disjoint t end.

Lemma encode_keeps fields : forall values x o w, disjoint_from (o, w) fields ->
  getbits (encode fields values x) o w = getbits x o w.
Proof.
  induction fields as [|[o1 w1] ft IH]; intros [|v vt] x o w Hd; simpl; try reflexivity.
  destruct Hd as [H1 H2]. rewrite IH by exact H2. apply get_set_other. simpl in H1. lia.
Qed.

Definition member_inside (sizes : list N) (m : N * N * N) : bool :=
  let '(si, o, w) := m in o + w <=? 8 * nth (N.to_nat si) sizes 0.
(* the index of ArrayTypeDimension (a union of two 16-bit members) among the structs of Gen/BlobLayout.v: its position in
   blob_sizes, its tag in all_scalar_members; a struct added before it in gitypelib-internal.h shifts it *)
Definition union_struct : N := 10.
(* members of the same struct do not overlap, the union excepted *)
Fixpoint no_overlap (l : list (N * N * N)) : bool :=
  match l with
  | [] => true
  | (si, o, w) :: t =>
      forallb (fun m => let '(sj, o2, w2) := m in
                        negb (si =? sj) || (si =? union_struct) || (o2 + w2 <=? o) || (o + w <=? o2)) t
      && no_overlap t
  end.
