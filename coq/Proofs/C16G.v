From Coq Require Import List ZArith Lia.
From GIV.Lib Require Import Regex Str Facts.
From GIV.Model Require Import C16G.
Import ListNotations.
Local Open Scope Z_scope.

Definition cands_ok (cands : list (str * Z)) : Prop :=
  (forall n p, lookup n cands = Some p -> 0 <= p) /\
  (forall n n' p, lookup n cands = Some p -> lookup n' cands = Some p -> n = n').

Definition is_cand (cands : list (str * Z)) (setter : option str) (m : str) : option Z :=
  if match setter with Some s => str_eqb m s | None => false end then None else lookup m cands.

Lemma is_cand_lookup {cands setter m p} : is_cand cands setter m = Some p -> lookup m cands = Some p.
Proof. unfold is_cand. destruct (match setter with Some s => str_eqb m s | None => false end); [discriminate|auto]. Qed.

Lemma gstep_eq cands setter g m :
  gstep cands setter g m =
  match is_cand cands setter m with
  | None => g
  | Some p => if priority_of cands g <=? p then Some m else g
  end.
Proof. unfold gstep, is_cand. destruct (match setter with Some s => str_eqb m s | None => false end); reflexivity. Qed.

(* what the election has reached after the methods [seen] *)
Definition best (cands : list (str * Z)) (setter : option str) (seen : list str) (g : option str) : Prop :=
  (g = None /\ forall m, In m seen -> is_cand cands setter m = None) \/
  (exists m p, g = Some m /\ In m seen /\ is_cand cands setter m = Some p /\
               forall m' p', In m' seen -> is_cand cands setter m' = Some p' -> p' <= p).

Section Election.
  Context (cands : list (str * Z)) (setter : option str).

  Definition bounded (seen : list str) (q : Z) : Prop :=
    forall m p, In m seen -> is_cand cands setter m = Some p -> p <= q.

  Lemma bounded_snoc seen m q :
    bounded seen q -> (forall p, is_cand cands setter m = Some p -> p <= q) -> bounded (seen ++ [m]) q.
  Proof. intros Hs Hm m' p [Hin|[<-|[]]]%in_app_or; [exact (Hs m' p Hin) | exact (Hm p)]. Qed.

  Lemma best_bounded seen g : best cands setter seen g -> bounded seen (priority_of cands g).
  Proof.
    intros [[-> Hnone] | (c & q & -> & _ & Hc & Hmax)] m p Hin Hm.
    - rewrite (Hnone m Hin) in Hm. discriminate.
    - cbn [priority_of]. rewrite (is_cand_lookup Hc). exact (Hmax m p Hin Hm).
  Qed.

  Lemma best_take seen g m p :
    best cands setter seen g -> is_cand cands setter m = Some p -> priority_of cands g <= p ->
    best cands setter (seen ++ [m]) (Some m).
  Proof.
    intros Hb Hm Hle. right. exists m, p. repeat split; [apply in_elt | exact Hm |]. apply bounded_snoc.
    - intros m' p' Hin Hc. pose proof (best_bounded _ _ Hb m' p' Hin Hc). lia.
    - rewrite Hm. intros p' [= <-]. lia.
  Qed.

  Lemma best_keep seen g m :
    best cands setter seen g -> (forall p, is_cand cands setter m = Some p -> 0 <= p <= priority_of cands g) ->
    best cands setter (seen ++ [m]) g.
  Proof.
    intros [[-> Hnone] | (c & q & -> & Hin & Hc & Hmax)] Hm; cbn [priority_of] in Hm.
    - left. split; [reflexivity|]. intros m' [Hin|[<-|[]]]%in_app_or; [exact (Hnone m' Hin)|].
      destruct (is_cand cands setter m) as [p|]; [specialize (Hm p eq_refl); lia | reflexivity].
    - right. exists c, q. repeat split; [apply in_or_app; left; exact Hin | exact Hc |].
      rewrite (is_cand_lookup Hc) in Hm. apply bounded_snoc; [exact Hmax | apply Hm].
  Qed.

  Lemma best_step seen g m :
    cands_ok cands -> best cands setter seen g -> best cands setter (seen ++ [m]) (gstep cands setter g m).
  Proof.
    intros [Hpos _] Hb. rewrite gstep_eq. destruct (is_cand cands setter m) as [p|] eqn:Hm.
    - destruct (Z.leb_spec (priority_of cands g) p) as [Hle|Hlt]; [exact (best_take _ _ _ _ Hb Hm Hle)|].
      apply best_keep; [exact Hb|]. rewrite Hm. intros p' [= <-].
      specialize (Hpos m p (is_cand_lookup Hm)). lia.
    - apply best_keep; [exact Hb|]. rewrite Hm. discriminate.
  Qed.

  (* the elected getter is the candidate of the highest priority among the methods, none when no method is a candidate *)
  Lemma elect_best methods : cands_ok cands -> best cands setter methods (elect cands setter methods None).
  Proof.
    intros Hok. unfold elect. induction methods as [|m l IH] using rev_ind.
    - left. split; [reflexivity | intros m []].
    - rewrite fold_left_app. exact (best_step l _ m Hok IH).
  Qed.

  Lemma best_unique l l' g g' :
    cands_ok cands -> (forall m, In m l <-> In m l') -> best cands setter l g -> best cands setter l' g' -> g = g'.
  Proof.
    intros [_ Hinj] Hsame [[-> Hn] | (m & p & -> & Hin & Hc & Hmax)] [[-> Hn'] | (m' & p' & -> & Hin' & Hc' & Hmax')].
    - reflexivity.
    - apply Hsame in Hin'. rewrite (Hn _ Hin') in Hc'. discriminate.
    - apply Hsame in Hin. rewrite (Hn' _ Hin) in Hc. discriminate.
    - apply Hsame in Hin' as Hin1. apply Hsame in Hin as Hin2.
      assert (p = p') as <- by (specialize (Hmax m' p' Hin1 Hc'); specialize (Hmax' m p Hin2 Hc); lia).
      f_equal. eapply Hinj; eapply is_cand_lookup; eassumption.
  Qed.
End Election.

Lemma app_inj_head (a b c : str) : a ++ b = a ++ c -> b = c.
Proof. apply app_inv_head. Qed.

Lemma lookup_In k t p : lookup k t = Some p -> In (k, p) t.
Proof.
  induction t as [|[n q] t IH]; cbn [lookup]; [discriminate|].
  destruct (str_eqb_spec n k) as [->|_]; [intros [= ->]; left; reflexivity | right; auto].
Qed.

Lemma cands_ok_distinct t : Forall (fun np => 0 <= snd np) t -> NoDup (map snd t) -> cands_ok t.
Proof.
  intros Hpos Hnd. split.
  - intros n p H%lookup_In. rewrite Forall_forall in Hpos. exact (Hpos _ H).
  - intros n n' p H%lookup_In H'%lookup_In. pose proof (NoDup_map_inj snd t _ _ Hnd H H' eq_refl) as [= E]. exact E.
Qed.

(* the table of the witnesses: of the example below, and against the variant that reads the current priority once before
   the loop (C16_getter_read_once_refuted) *)
Definition w_name : str := [97]%N.
Definition w_cands := getter_candidates None true true true w_name.
Example elect_nonvacuous :
  elect w_cands None [s_is_ ++ w_name; s_get_ ++ w_name; w_name] None = Some (s_get_ ++ w_name)
  /\ elect w_cands None [s_get_ ++ w_name; s_is_ ++ w_name] None = Some (s_get_ ++ w_name)
  /\ elect (getter_candidates None true false true w_name) None [w_name; s_is_ ++ w_name] None = Some (s_is_ ++ w_name).
Proof. vm_compute. auto. Qed.
