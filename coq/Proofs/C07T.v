From Coq Require Import List NArith Bool Lia.
From GIV.Lib Require Import Regex Str Facts.
From GIV.Model Require Import C07T.
Import ListNotations.
Local Open Scope N_scope.

(* the value of a digit string, as Python's int() and C's atoi() accumulate it *)
Definition dstep (a c : N) : N := a * 10 + (c - 48).
Definition dval (s : str) : N := fold_left dstep s 0.

(* dec takes its fuel from log2: f steps are enough below 2^f, one digit being more than one bit. The digits come in front of
   [acc]: read from 0 they give n, from where [acc] is read on *)
Lemma dec_fuel_spec : forall f n acc, (0 < f)%nat -> n < 2 ^ N.of_nat f ->
  dec_fuel f n acc <> [] /\ forallb is_digit (dec_fuel f n acc) = forallb is_digit acc
  /\ fold_left dstep (dec_fuel f n acc) 0 = fold_left dstep acc n.
Proof.
  induction f as [|f IH]; intros n acc Hf Hn; [lia|].
  rewrite Nat2N.inj_succ, N.pow_succ_r' in Hn. cbn [dec_fuel].
  pose proof (N.div_mod' n 10) as E. assert (Hm : n mod 10 < 10) by (apply N.mod_lt; lia).
  set (q := n / 10) in *. set (m := n mod 10) in *. clearbody q m.
  assert (Hd : is_digit (48 + m) = true) by (apply andb_true_iff; split; apply N.leb_le; lia).
  destruct (N.ltb_spec n 10) as [Hlt|Hge].
  - cbn [forallb fold_left]. rewrite Hd. repeat split; [discriminate|]. f_equal. unfold dstep. lia.
  - destruct (IH q ((48 + m) :: acc)) as (Hne & -> & ->).
    + destruct f; [cbn in Hn|]; lia.
    + lia.
    + cbn [forallb fold_left]. rewrite Hd. repeat split; [exact Hne|]. f_equal. unfold dstep. lia.
Qed.

(* the digits of '%d' % n *)
Lemma dec_spec n : dec n <> [] /\ forallb is_digit (dec n) = true /\ dval (dec n) = n.
Proof.
  apply (dec_fuel_spec (S (N.to_nat (N.log2 n))) n []); [lia|].
  rewrite Nat2N.inj_succ, N2Nat.id. destruct (N.eq_dec n 0) as [->|Hz]; [reflexivity|apply N.log2_spec; lia].
Qed.

Lemma undec_dec n : undec (dec n) = Some n.
Proof.
  destruct (dec_spec n) as (Hne & Hdig & Hv). unfold undec. rewrite Hdig.
  destruct (dec n); [contradiction|]. f_equal. exact Hv.
Qed.

Lemma read_num_opt (o : option N) b : read_num (option_map dec o) b = Some o.
Proof.
  destruct o as [n|]; [|reflexivity]. pose proof (undec_dec n) as H. cbn [option_map read_num].
  destruct (dec n); [discriminate H|]. rewrite H. reflexivity.
Qed.

Lemma to_name_own ns loc : to_name ns (ns ++ 46 :: loc) = loc.
Proof.
  unfold to_name. change (ns ++ 46 :: loc) with (ns ++ [46] ++ loc). rewrite app_assoc, startswith_app.
  change 1%nat with (length [46]). rewrite <- app_length. apply skipn_app_exact.
Qed.

Lemma to_name_other ns nsn loc : ~ In 46 ns -> ~ In 46 nsn -> nsn <> ns ->
  to_name ns (nsn ++ 46 :: loc) = nsn ++ 46 :: loc.
Proof.
  intros Hns Hnsn Hne. unfold to_name.
  destruct (startswith (ns ++ [46]) (nsn ++ 46 :: loc)) eqn:S; [|reflexivity].
  apply startswith_spec in S as (r & E). rewrite <- app_assoc in E.
  contradict Hne. apply (app_sep_inj 46 nsn ns loc r Hnsn Hns E).
Qed.

Lemma has_dot_In s : has_dot s = true <-> In 46 s.
Proof.
  unfold has_dot. rewrite existsb_exists. split; [intros (x & H & ->%N.eqb_eq); exact H|].
  intro H. exists 46. split; [exact H|reflexivity].
Qed.

(* what the reader makes of the written form of a name: the name itself, unless the written form is spelled like a
   fundamental type *)
Lemma from_to_name ns nsn loc c : ~ In 46 ns -> ~ In 46 nsn -> ~ In 46 loc ->
  let g := nsn ++ 46 :: loc in
  type_from_name ns (to_name ns g) c = if is_fund (to_name ns g) then AFund (to_name ns g) c else ANamed g c.
Proof.
  intros Hns Hnsn Hloc g. unfold type_from_name. destruct (is_fund _); [reflexivity|]. subst g.
  destruct (list_eq_dec N.eq_dec nsn ns) as [->|Hne].
  - rewrite to_name_own. destruct (has_dot loc) eqn:D; [apply has_dot_In in D; contradiction|reflexivity].
  - rewrite (to_name_other ns nsn loc Hns Hnsn Hne). replace (has_dot _) with true; [reflexivity|].
    symmetry. apply has_dot_In, in_elt.
Qed.

(* n is none of the names the reader takes for containers (GLib.List, GLib.SList, GLib.HashTable) *)
Definition plain (n : str) : Prop :=
  str_eqb n s_glist = false /\ str_eqb n s_gslist = false /\ str_eqb n s_ghash = false.

Lemma fund_plain n : is_fund n = true -> plain n.
Proof.
  intro F. unfold plain.
  destruct (str_eqb_spec n s_glist) as [->|_]; [discriminate F|].
  destruct (str_eqb_spec n s_gslist) as [->|_]; [discriminate F|].
  destruct (str_eqb_spec n s_ghash) as [->|_]; [discriminate F|]. auto.
Qed.

(* the types the writer is given: what the three theorems below assume. A named type is Namespace.Local with no further dot,
   and its written form is not a container name *)
Fixpoint wf_ty (ns : str) (t : aty) : Prop :=
  match t with
  | AVarargs => True
  | AArray k _ _ _ _ e => array_kind_ok k = true /\ wf_ty ns e
  | AList n _ e => (n = s_glist \/ n = s_gslist) /\ e <> AVarargs /\ wf_ty ns e
  | AMap _ k v => k <> AVarargs /\ v <> AVarargs /\ wf_ty ns k /\ wf_ty ns v
  | AFund n _ => is_fund n = true
  | ANamed g _ => (exists nsn loc, g = nsn ++ 46 :: loc /\ ~ In 46 nsn /\ ~ In 46 loc) /\ plain (to_name ns g)
  | AUnresolved _ => True
  end.

(* what the reader returns for the written form of t: t with every named type passed through to_name and type_from_name *)
Fixpoint canon (ns : str) (t : aty) : aty :=
  match t with
  | AArray k c z s l e => AArray k c z s l (canon ns e)
  | AList n c e => AList n c (canon ns e)
  | AMap c k v => AMap c (canon ns k) (canon ns v)
  | ANamed g c => type_from_name ns (to_name ns g) c
  | _ => t
  end.

Lemma tag_write ns t : t <> AVarargs -> tag_of (write_ty ns t) = s_array \/ tag_of (write_ty ns t) = s_type.
Proof. destruct t; intro H; [contradiction|left|right..]; reflexivity. Qed.

Lemma pick_write ns t r : pick [tag_of (write_ty ns t)] [r] = r.
Proof. destruct t; reflexivity. Qed.

(* the attributes of a written <array>, under a name: with the list written out, every step over an array node carries it *)
Definition array_attrs (k c : option str) (z : bool) (s l : option N) : list (str * str) :=
  opt_attr s_length (option_map dec l)
  ++ (if negb z then [(s_zero, [48])] else match s, l with None, None => [] | _, _ => [(s_zero, [49])] end)
  ++ opt_attr s_name k ++ opt_attr s_ctype c ++ opt_attr s_fixed (option_map dec s).

Lemma attr_array_attrs k c z s l :
  let a := array_attrs k c z s l in
  attr s_name a = k /\ attr s_ctype a = c /\ attr s_fixed a = option_map dec s /\ attr s_length a = option_map dec l /\
  attr s_zero a = if negb z then Some [48] else match s, l with None, None => None | _, _ => Some [49] end.
Proof. destruct k, c, z, s, l; repeat split; reflexivity. Qed.

Lemma read_named ns n c : plain n ->
  read_ty ns (XT s_type ((s_name, n) :: opt_attr s_ctype c) []) = Some (type_from_name ns n c).
Proof. intros (H1 & H2 & H3). destruct c; simpl; rewrite H1, H2, H3; reflexivity. Qed.

Theorem read_write ns : forall t, wf_ty ns t -> read_ty ns (write_ty ns t) = Some (canon ns t).
Proof.
  induction t as [|k c z s l e IH|n c e IH|c k IHk v IHv|n c|g c|c]; cbn [wf_ty]; intro W.
  - reflexivity.
  - destruct W as [Wk We]. change (write_ty ns (AArray k c z s l e)) with (XT s_array (array_attrs k c z s l) [write_ty ns e]).
    cbn [read_ty map canon]. destruct (attr_array_attrs k c z s l) as (-> & -> & -> & -> & ->).
    rewrite Wk, pick_write, (IH We), !read_num_opt. destruct z, s, l; reflexivity.
  - (* the name and the tag of the child decide the reader's branch: each combination by computation *)
    destruct W as (Hn & Hv & We). cbn [write_ty canon read_ty map]. rewrite (IH We).
    destruct Hn as [-> | ->], (tag_write ns e Hv) as [-> | ->], c; reflexivity.
  - destruct W as (Hk & Hv & Wk & Wv). cbn [write_ty canon read_ty map]. rewrite (IHk Wk), (IHv Wv).
    destruct (tag_write ns k Hk) as [-> | ->], (tag_write ns v Hv) as [-> | ->], c; reflexivity.
  - cbn [write_ty canon]. rewrite read_named by (apply fund_plain; exact W).
    unfold type_from_name. rewrite W. reflexivity.
  - destruct W as [_ Wp]. apply read_named. exact Wp.
  - destruct c; reflexivity.
Qed.

Theorem write_canon ns : ~ In 46 ns -> forall t, wf_ty ns t -> write_ty ns (canon ns t) = write_ty ns t.
Proof.
  intros Hns. induction t as [|k c z s l e IH|n c e IH|c k IHk v IHv|n c|g c|c]; cbn [wf_ty canon write_ty]; intro W; try reflexivity.
  - rewrite IH by tauto. reflexivity.
  - rewrite IH by tauto. reflexivity.
  - rewrite IHk, IHv by tauto. reflexivity.
  - destruct W as [(nsn & loc & -> & Hnsn & Hloc) _]. rewrite from_to_name by assumption.
    destruct (is_fund _); reflexivity.
Qed.

(* and the type itself comes back when no name of the own namespace is spelled like a fundamental type *)
Fixpoint no_clash (ns : str) (t : aty) : Prop :=
  match t with
  | AArray _ _ _ _ _ e | AList _ _ e => no_clash ns e
  | AMap _ k v => no_clash ns k /\ no_clash ns v
  | ANamed g _ => is_fund (to_name ns g) = false
  | _ => True
  end.

Theorem canon_id ns : ~ In 46 ns -> forall t, wf_ty ns t -> no_clash ns t -> canon ns t = t.
Proof.
  intros Hns. induction t as [|k c z s l e IH|n c e IH|c k IHk v IHv|n c|g c|c]; cbn [wf_ty no_clash canon]; intros W Hnc; try reflexivity.
  - rewrite IH by tauto. reflexivity.
  - rewrite IH by tauto. reflexivity.
  - rewrite IHk, IHv by tauto. reflexivity.
  - destruct W as [(nsn & loc & -> & Hnsn & Hloc) _]. rewrite from_to_name, Hnc by assumption. reflexivity.
Qed.
