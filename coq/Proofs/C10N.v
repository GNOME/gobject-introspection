From Coq Require Import List Arith NArith Lia.
From GIV.Lib Require Import Regex Str Backtrack BtRuns Facts.
From GIV.Gen Require Import AnnNames BlockRegex.
From GIV.Model Require Import C10 C10B C10BSpec.
From GIV.Proofs Require Import C11B C11E.
Import ListNotations.

(* C10: what the parser recovers does not depend on where a line stands on the page.  First part: every function of the
   annotation machinery computes its result - everything but the diagnostics - without looking at the quoted line and the
   column it is given. *)

Lemma opts_fst ln q c q' c' o : fst (opts_list_d ln q c o) = fst (opts_list_d ln q' c' o).
Proof. unfold opts_list_d. destruct o as [[|x t]|]; [|destruct (find_index 61 (x :: t) 0)|]; reflexivity. Qed.

Lemma finish_fst ln q c q' c' name rest ds ds' :
  fst (finish_annotation ln q c name rest ds) = fst (finish_annotation ln q' c' name rest ds').
Proof.
  unfold finish_annotation. destruct (existsb (str_eqb name) list_annotations).
  - apply let_fst_eq; [apply opts_fst|reflexivity].
  - destruct (existsb (str_eqb name) dict_annotations); reflexivity.
Qed.

Lemma parse_annotation_fst ln q c q' c' a : fst (parse_annotation_d ln q c a) = fst (parse_annotation_d ln q' c' a).
Proof.
  unfold parse_annotation_d. destruct (split1 sp _ []) as [n0 rest].
  destruct (str_eqb (py_lower n0) ann_inout_alt); [apply finish_fst|].
  destruct (str_eqb (py_lower n0) ann_attribute); [|apply finish_fst].
  apply let_fst_eq; [apply opts_fst|]. intros [|a1 [|a2 [|a3 l]]] dl dl'; try apply finish_fst; reflexivity.
Qed.

Definition pas_with (st : pas) (ds : list diag) : pas :=
  {| pa_level := pa_level st; pa_prev := pa_prev st; pa_buf := pa_buf st; pa_start := pa_start st; pa_end := pa_end st;
     pa_anns := pa_anns st; pa_raws := pa_raws st; pa_changed := pa_changed st; pa_diags := ds |}.
Definition po_with (r : pa_out) (ds : list diag) : pa_out :=
  {| po_success := po_success r; po_anns := po_anns r; po_apos := po_apos r; po_raws := po_raws r; po_changed := po_changed r;
     po_end := po_end r; po_diags := ds |}.

Lemma pa_loop_content popt ln q column q' column' : forall x i st ds',
  match pa_loop popt ln q column x i st, pa_loop popt ln q' column' x i (pas_with st ds') with
  | PAok a, PAok b => exists ds, b = pas_with a ds
  | PAfail _, PAfail _ => True
  | _, _ => False
  end.
Proof.
  induction x as [|c t IH]; intros i st ds'; [exists ds'; reflexivity|].
  cbn [pa_loop pas_with pa_level pa_prev pa_buf pa_start pa_end pa_anns pa_raws pa_changed pa_diags].
  destruct (N.eqb c lpar).
  { destruct (match pa_prev st with Some p => N.eqb p lpar | None => false end); [exact I|]. exact (IH _ _ ds'). }
  destruct (N.eqb c rpar).
  { destruct (match pa_prev st with Some p => N.eqb p lpar | None => false end); [exact I|].
    destruct (pa_level st) as [|[|l]]; [exact I| |exact (IH _ _ ds')].
    destruct popt; [|exact (IH _ _ ds')].
    rewrite !let_pair, (parse_annotation_fst ln q _ q' (column' + pa_start st)).
    destruct (fst (parse_annotation_d ln q' _ _)) as [[name v]|]; exact (IH _ _ (ds' ++ _)). }
  destruct (is_space c); [exact (IH _ _ ds')|].
  destruct (pa_level st); [exists ds'; reflexivity|exact (IH _ _ ds')].
Qed.

Lemma parse_annotations_content popt ln q column q' column' fields existing :
  exists ds, parse_annotations_d popt ln q' column' fields existing = po_with (parse_annotations_d popt ln q column fields existing) ds.
Proof.
  unfold parse_annotations_d.
  set (st0 := Build_pas _ _ _ _ _ _ _ _ _).
  pose proof (pa_loop_content popt ln q column q' column' fields 0 st0 []) as H. change (pas_with st0 []) with st0 in H.
  destruct (pa_loop popt ln q _ _ _ _) as [a|], (pa_loop popt ln q' _ _ _ _) as [b|]; try contradiction; [|eexists; reflexivity].
  destruct H as [ds ->]. unfold pas_with. cbn [pa_level pa_anns pa_raws pa_changed pa_end pa_diags].
  destruct (pa_level a); eexists; reflexivity.
Qed.

Lemma parse_fields_content popt vd ln q column q' column' fields existing :
  exists ds, parse_fields_d popt vd ln q' column' fields existing
             = (po_with (fst (parse_fields_d popt vd ln q column fields existing)) ds, snd (parse_fields_d popt vd ln q column fields existing)).
Proof.
  unfold parse_fields_d. destruct (parse_annotations_content popt ln q column q' column' fields existing) as [ds ->].
  cbn [po_with po_success po_end].
  destruct (po_success _); [destruct (strip _) as [|c t]; [|destruct (vd && _)%bool; [destruct (N.eqb c colon)|]]|]; eexists; reflexivity.
Qed.

Lemma part_with_fields_fst p ln q column q' column' fields :
  fst (part_with_fields p ln q column fields) = fst (part_with_fields p ln q' column' fields).
Proof.
  unfold part_with_fields. destruct fields as [|c f]; [reflexivity|].
  destruct (parse_fields_content true true ln q column q' column' (c :: f) None) as [ds ->].
  destruct (parse_fields_d _ _ _ _ _ _ _) as [r dd]. cbn [fst snd po_with po_success po_anns po_apos]. destruct (po_success r); reflexivity.
Qed.

Lemma attributes_transform_fst ln q marker q' marker' : forall raws acc,
  fst (attributes_transform ln q marker raws acc) = fst (attributes_transform ln q' marker' raws acc).
Proof.
  induction raws as [|a t IH]; intros acc; cbn [attributes_transform]; [reflexivity|].
  apply let_fst_eq; [apply opts_fst|]. intros [|o1 [|o2 [|o3 l]]] dl dl'; try reflexivity.
  all: apply let_fst_eq; [apply IH|reflexivity].
Qed.

(* the part and the flag "CPython would raise here": what is kept of the triple is not a projection, so the statement is that
   of Facts.let_fst_eq with this function put in *)
Lemma plain_tag_part_c {C T} (c : C -> T) ln q fcol q' fcol' tlow tfields (f g : part -> list diag -> bool -> C) :
  (forall p ds ds' exc, c (f p ds exc) = c (g p ds' exc)) ->
  c (let '(p, ds, exc) := plain_tag_part ln q fcol tlow tfields in f p ds exc)
  = c (let '(p, ds, exc) := plain_tag_part ln q' fcol' tlow tfields in g p ds exc).
Proof.
  intro H. unfold plain_tag_part. destruct tfields as [|ch t]; [apply H|].
  destruct (parse_fields_content true true ln q fcol q' fcol' (ch :: t) None) as [ds ->].
  destruct (parse_fields_d _ _ _ _ _ _ _) as [r d]. cbn [fst snd po_with po_success po_anns]. destruct (po_success r); [|apply H].
  destruct (_ || _)%bool; [destruct (bmatch re_tagver d)|destruct (str_eqb tlow tag_stability); [destruct (bmatch re_tagstab d)|]]; apply H.
Qed.

(* Second part: one step of the line loop computes everything but block.indentation and the diagnostics from the text behind
   the asterisk alone: two descriptions a, b of a line that differ in the source line and the column of that text, and a
   state st beside the same state with another recorded indentation and other diagnostics *)
Section SameLine.
  Context (ln : nat) (line : str) (ind : nat) (o o' : str) (co co' : nat) (i' : list str) (ds' : list diag).
  Let a := {| cx_ln := ln; cx_orig := o; cx_line := line; cx_co := co; cx_indent := ind |}.
  Let b := {| cx_ln := ln; cx_orig := o'; cx_line := line; cx_co := co'; cx_indent := ind |}.
  Let other (st : lst) := {| l_blk := l_blk st; l_warned := l_warned st; l_indent := i'; l_pindent := l_pindent st; l_part := l_part st;
                             l_cur := l_cur st; l_rseen := l_rseen st; l_diags := ds'; l_exc := l_exc st |}.

  Lemma step_ident_c cb ca bl st : lst_c (step_ident a cb ca bl st) = lst_c (step_ident b cb ca bl (other st)).
  Proof.
    unfold step_ident, a, b. cbn [cx_ln cx_orig cx_line cx_co cx_indent].
    destruct (match_ident line) as [idn|]; [|reflexivity].
    destruct (id_fields idn) as [[|fc ft]|]; try reflexivity.
    destruct (parse_annotations_content true ln o (co + id_fstart idn) o' (co' + id_fstart idn) (fc :: ft) None) as [dsp ->].
    cbn [po_with po_success po_end po_anns po_apos]. destruct (po_success _); [|reflexivity]. destruct (nonempty _); reflexivity.
  Qed.

  Lemma step_param_c cs bk st : lst_c (step_param a cs bk st) = lst_c (step_param b cs bk (other st)).
  Proof.
    unfold step_param, a, b. cbn [cx_ln cx_orig cx_line cx_co cx_indent].
    destruct (str_eqb _ tag_returns); (apply let_fst_eq; [apply part_with_fields_fst|reflexivity]).
  Qed.

  Lemma step_deprecated_tag_c cs bk st : lst_c (step_deprecated_tag a cs bk st) = lst_c (step_deprecated_tag b cs bk (other st)).
  Proof.
    unfold step_deprecated_tag, a, b. cbn [cx_ln cx_orig cx_line cx_co cx_indent].
    destruct (str_eqb _ tag_attributes).
    - destruct (parse_fields_content false false ln line (gstart g_tag_tag_name cs + co) line (gstart g_tag_tag_name cs + co')
                  (strip (gtext g_tag_fields line cs)) None) as [dsf ->].
      destruct (parse_fields_d _ _ _ _ _ _ _) as [r d]. cbn [fst snd po_with po_success po_raws po_diags].
      destruct (po_success r); [|reflexivity].
      apply let_fst_eq; [apply attributes_transform_fst|]. intros [[|tc tt]|] dt dt'; try reflexivity.
      apply let_fst_eq; [apply parse_annotation_fst|]. intros [[nm v]|] da da'; [|reflexivity].
      destruct (match ann_get _ _ with Some _ => _ | None => _ end); reflexivity.
    - apply let_fst_eq; [apply parse_annotation_fst|]. intros [[nm v]|] da da'; reflexivity.
  Qed.

  Lemma step_tag_c cs bk st : lst_c (step_tag a cs bk st) = lst_c (step_tag b cs bk (other st)).
  Proof.
    unfold step_tag. destruct (existsb (str_eqb _) deprecated_ann_tags); [apply step_deprecated_tag_c|].
    unfold a, b. cbn [cx_ln cx_orig cx_line cx_co cx_indent].
    destruct (str_eqb _ tag_description); [reflexivity|].
    destruct (existsb (str_eqb _) return_tag_names).
    - apply let_fst_eq; [apply part_with_fields_fst|reflexivity].
    - apply plain_tag_part_c. reflexivity.
  Qed.

  Lemma cont_part_fst l0 l k : fst (cont_part a l0 l k) = fst (cont_part b l0 l k).
  Proof.
    unfold cont_part, a, b. cbn [cx_ln cx_orig cx_co]. destruct (part_get l k) as [p0|]; [|reflexivity]. destruct (truthy _); [reflexivity|].
    destruct (parse_fields_content true true ln o co o' co' l0 (Some (pt_anns p0, pt_apos p0))) as [dsf ->].
    destruct (parse_fields_d _ _ _ _ _ _ _) as [r dd]. cbn [fst snd po_with po_success po_changed po_anns po_apos].
    destruct (_ && _)%bool; reflexivity.
  Qed.

  Lemma cont_cur_c l0 bk st : lst_c (cont_cur a l0 bk st) = lst_c (cont_cur b l0 bk (other st)).
  Proof.
    unfold cont_cur. change (l_cur (other st)) with (l_cur st).
    destruct (l_cur st) as [|k|k]; [reflexivity| |]; (apply let_fst_eq; [apply cont_part_fst|reflexivity]).
  Qed.

  Lemma cont_desc_c l0 bk st : lst_c (cont_desc a l0 bk st) = lst_c (cont_desc b l0 bk (other st)).
  Proof.
    unfold cont_desc, a, b. cbn [cx_ln cx_orig cx_co].
    destruct (parse_annotations_content true ln o co o' co' l0 (Some (bk_anns bk, bk_apos bk))) as [dsp ->].
    cbn [po_with po_success po_changed po_anns po_apos]. destruct (_ && _ && _)%bool; reflexivity.
  Qed.

  Lemma step_cont_c bk st : lst_c (step_cont a bk st) = lst_c (step_cont b bk (other st)).
  Proof.
    rewrite !step_cont_eq. change (l_part (other st)) with (l_part st).
    destruct (l_part st) as [[]|]; (apply cont_cur_c || apply cont_desc_c).
  Qed.
End SameLine.

(* Third part: what COMMENT_ASTERISK_RE,  ^\s*(.*?)\s*\*\s? , does with a line  <blanks> * <text> , by symbolic evaluation of
   the backtracking matcher, factor by factor. *)

(* 1 if a blank follows the asterisk (the final \s? of the pattern takes it), else 0 *)
Definition delta (rest : str) : nat := match rest with h :: _ => if cls_mem sp_cls h then 1 else 0 | [] => 0 end.

Lemma asterisk_not_space : cls_mem sp_cls 42%N = false. Proof. vm_compute. reflexivity. Qed.

Lemma re_asterisk_shape : re_asterisk =
  BCat BBol (BCat (BStar true (BCls sp_cls)) (BCat (BGroup g_asterisk_comment (BStar false (BCls (CNot (CChar 10)))))
    (BCat (BStar true (BCls sp_cls)) (BCat (BCls (CChar 42)) (BOpt true (BCls sp_cls)))))).
Proof. reflexivity. Qed.

Lemma asterisk_match ind rest : Forall (fun x => cls_mem sp_cls x = true) ind ->
  bmatch re_asterisk (ind ++ 42%N :: rest)
  = Some [(0, (0, length ind + 1 + delta rest)); (g_asterisk_comment, (length ind, length ind))].
Proof.
  intro Hi. rewrite re_asterisk_shape. unfold bmatch, bmatch_at.
  (* ^ : the match starts at position 0 *)
  change (bm (BCat BBol ?b) ?s 0 ?c ?k) with (bm b s 0 c k).
  (* \s* runs over ind and stops in front of the asterisk *)
  apply bm_cat_star_run; [exact Hi|exact asterisk_not_space|]. cbn [Nat.add].
  (* (.*?) is tried empty first, and the rest of the pattern matches from there: the group stays empty *)
  apply bm_cat_group_lazy.
  (* the second \s* has nothing to run over, the asterisk comes next *)
  apply (bm_cat_star_run _ _ []); [constructor|exact asterisk_not_space|]. cbn [app length]. rewrite Nat.add_0_r.
  (* \* takes the asterisk *)
  apply bm_cat_cls; [reflexivity|].
  (* \s? takes a blank if one follows: delta *)
  unfold delta. destruct rest as [|h t]; cbn [bm]; [|destruct (cls_mem sp_cls h)]; repeat f_equal; lia.
Qed.

Lemma prelude ln ind rest : blanks ind ->
  (match bmatch re_asterisk (ind ++ 42%N :: rest) with
   | Some cs => (gend 0 cs, if nonempty (gtext g_asterisk_comment (ind ++ 42%N :: rest) cs)
                            then [mkd true 6 ln (gstart g_asterisk_comment cs) (ind ++ 42%N :: rest)] else [])
   | None => (0, [])
   end) = (length ind + 1 + delta rest, []).
Proof.
  intro H. rewrite (asterisk_match ind rest (proj1 (Forall_and_inv _ _ H))).
  unfold gend, gstart, gtext, gspan, g_asterisk_comment. cbn [Backtrack.lookup Nat.eqb fst snd].
  unfold slice. rewrite Nat.sub_diag. reflexivity.
Qed.

Lemma skipn_prefix {A} (ind : list A) c rest d : skipn (length ind + 1 + d) (ind ++ c :: rest) = skipn d rest.
Proof.
  replace (length ind + 1 + d) with (length ind + S d) by lia. rewrite skipn_app, skipn_all2 by lia.
  replace (length ind + S d - length ind) with (S d) by lia. reflexivity.
Qed.

(* C10: what one step of the line loop makes of a line does not depend on the blanks in front of its asterisk *)
Theorem step_indent_independent cb ca bl ln ind1 ind2 rest st1 st2 :
  blanks ind1 -> blanks ind2 -> no_lf rest -> lst_c st1 = lst_c st2 ->
  lst_c (step cb ca bl ln (ind1 ++ 42%N :: rest) st1) = lst_c (step cb ca bl ln (ind2 ++ 42%N :: rest) st2).
Proof.
  intros H1 H2 Hr Hs. destruct st1 as [ob w i1 pi pt cur rs ds1 exc], st2 as [ob' w' i2 pi' pt' cur' rs' ds2 exc'].
  injection Hs as <- <- <- <- <- <- <-.
  assert (Hi : forall ind, blanks ind -> bmatch re_indent (ind ++ 42%N :: rest) <> None).
  { intros ind H. refine (proj1 (unguarded_patterns_total _ _)). apply Forall_app.
    split; [exact (proj2 (Forall_and_inv _ _ H))|constructor; [discriminate|exact Hr]]. }
  unfold step. cbn [l_blk l_warned l_indent l_pindent l_part l_cur l_rseen l_diags l_exc].
  rewrite (prelude ln ind1 rest H1), (prelude ln ind2 rest H2), !skipn_prefix.
  destruct (bmatch re_indent (ind1 ++ _)) as [c1|] eqn:E1; [|destruct (Hi _ H1 E1)].
  destruct (bmatch re_indent (ind2 ++ _)) as [c2|] eqn:E2; [|destruct (Hi _ H2 E2)].
  destruct ob as [b|]; [|apply step_ident_c].
  destruct (bmatch re_parameter _) as [cs|]; [apply step_param_c|].
  destruct (_ && _)%bool; [reflexivity|].
  destruct (bmatch re_tag _) as [cs|]; [destruct (Nat.leb _ _); [apply step_tag_c|]|]; apply step_cont_c.
Qed.
