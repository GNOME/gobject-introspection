From Coq Require Import List ZArith Lia.
From GIV.Lib Require Import Facts.
From GIV.Gen Require Import Accessors.
From GIV.Model Require Import C09.
Local Open Scope Z_scope.

Lemma node_align4 x : node_align x 4 = ((x + 3) / 4) * 4.
Proof. exact (land_lnot_pow2 (x + 3) 2 ltac:(lia)). Qed.

Lemma node_align_mod x : node_align x 4 mod 4 = 0.
Proof. rewrite node_align4. apply Z.mod_mul. lia. Qed.

Lemma node_align_id x : x mod 4 = 0 -> node_align x 4 = x.
Proof. intro H. rewrite node_align4. Z.div_mod_to_equations. lia. Qed.

Lemma mod4_add a b : a mod 4 = 0 -> b mod 4 = 0 -> (a + b) mod 4 = 0.
Proof. intros Ha Hb. Z.div_mod_to_equations. lia. Qed.
Lemma mod4_mul a b : b mod 4 = 0 -> (a * b) mod 4 = 0.
Proof. intro Hb. rewrite <- Z.mul_mod_idemp_r, Hb, Z.mul_0_r by lia. reflexivity. Qed.

#[local] Hint Resolve mod4_add mod4_mul node_align_mod : mod4.

(* two-byte entries padded to an even count *)
Lemma pad_pairs b k : b mod 4 = 0 -> 0 <= k -> node_align (b + 2 * k) 4 = b + (k + Z.rem k 2) * 2.
Proof. intros Hb Hk. rewrite node_align4, Z.rem_mod_nonneg by lia. Z.div_mod_to_equations. lia. Qed.

(* a section of blobs whose size is a multiple of four, laid after an aligned start, needs no padding *)
Lemma section_next w n sz : sz mod 4 = 0 -> node_align (node_align w 4 + n * sz) 4 = node_align w 4 + n * sz.
Proof. intro H. apply node_align_id. auto with mod4. Qed.

Lemma walk_closed fsz cbsz : forall emb pos k, (k <= length emb)%nat ->
  walk pos fsz cbsz emb k = pos + Z.of_nat k * fsz + count_true (firstn k emb) * cbsz.
Proof.
  unfold count_true. induction emb as [|b t IH]; intros pos [|k] Hk; cbn [walk firstn filter length] in *; try lia.
  rewrite IH by lia. destruct b; cbn [filter length]; lia.
Qed.

Lemma walk_all fsz cbsz emb pos :
  walk pos fsz cbsz emb (length emb) = pos + zlen emb * fsz + count_true emb * cbsz.
Proof. rewrite walk_closed by lia. rewrite firstn_all. reflexivity. Qed.

Lemma count_true_firstn l : forall k, 0 <= count_true (firstn k l) <= count_true l.
Proof.
  unfold count_true. induction l as [|[|] t IH]; intros [|k]; cbn [firstn filter length]; try lia; specialize (IH k); lia.
Qed.

Section Thms.
  Variable e : cnt.
  Variable embedded : list bool.
  Variable Hwf : wf e embedded.

  Ltac unwf :=
    destruct Hwf as (Hb & Hb0 & Hnf & Hnc & Hni & Hnp & Hnpr & Hnm & Hns & Hnv & Hnva &
                     [Ho0 Ho] & [Hi0 Hi] & [Hs0 Hs] & [Hu0 Hu] & [He0 He] & [Hf0 Hf] & [Hc0 Hc] &
                     [Hp0 Hp] & [Hfn0 Hfn] & [Hsg0 Hsg] & [Hvf0 Hvf] & [Hvl0 Hvl] & [Hk0 Hk]).

  Lemma obj_fields_start : w_obj_fields e = acc_g_object_info_get_field_offset e 0.
  Proof. unwf. unfold w_obj_fields. rewrite pad_pairs by auto with mod4. reflexivity. Qed.

  Lemma obj_props_closed : w_obj_props e embedded =
    w_obj_fields e + n_fields e * field_blob_size e + n_field_callbacks e * callback_blob_size e.
  Proof. unwf. unfold w_obj_props, w_obj_field, w_obj_fields. rewrite walk_all, Hnf, Hnc. apply node_align_id. auto with mod4. Qed.

  Lemma obj_sections_closed :
    w_obj_methods e embedded = w_obj_props e embedded + n_properties e * property_blob_size e /\
    w_obj_signals e embedded = w_obj_methods e embedded + n_methods e * function_blob_size e /\
    w_obj_vfuncs e embedded = w_obj_signals e embedded + n_signals e * signal_blob_size e /\
    w_obj_consts e embedded = w_obj_vfuncs e embedded + n_vfuncs e * vfunc_blob_size e.
  Proof. unwf. repeat split; apply section_next; assumption. Qed.

  Lemma if_props_closed : w_if_props e = acc_g_interface_info_get_property e 0.
  Proof. unwf. unfold w_if_props, acc_g_interface_info_get_property. rewrite pad_pairs by auto with mod4. lia. Qed.

  Lemma if_sections_closed :
    w_if_methods e = w_if_props e + n_properties e * property_blob_size e /\
    w_if_signals e = w_if_methods e + n_methods e * function_blob_size e /\
    w_if_vfuncs e = w_if_signals e + n_signals e * signal_blob_size e /\
    w_if_consts e = w_if_vfuncs e + n_vfuncs e * vfunc_blob_size e.
  Proof. unwf. repeat split; apply section_next; assumption. Qed.

  Theorem st_field k : w_st_field e embedded k = a_st_field e embedded k.
  Proof. reflexivity. Qed.
  Theorem st_method n :
    acc_g_struct_info_get_method (a_st_field e embedded (length embedded)) e n = w_st_methods e embedded + n * function_blob_size e.
  Proof. reflexivity. Qed.

  Theorem en_value n : acc_g_enum_info_get_value e n = w_en_values e + n * value_blob_size e.
  Proof. reflexivity. Qed.
  Theorem en_method n : acc_g_enum_info_get_method e n = w_en_methods e + n * function_blob_size e.
  Proof. reflexivity. Qed.
End Thms.

Lemma walk_back_spec l : forall hit key,
  (walk_back l hit key <= hit)%nat.
Proof.
  induction l as [|o t IH]; intros hit key; simpl; [lia|].
  destruct (Z.eqb o key); [|lia]. destruct hit as [|h]; [lia|]. specialize (IH h key). lia.
Qed.

(* what the API says about the dimensions of a C array, through the blob the compiler writes (Model/C06K.blob_carray) *)
From GIV.Model Require Import C06K.
Definition api_dims (fx : bool) (a : carray) : Z * Z :=
  let '(_, _, hl, hs, d) := blob_carray fx a in
  (acc_g_type_info_get_array_length hl (Z.of_N d), acc_g_type_info_get_array_fixed_size hs (Z.of_N d)).

(* a type blob is told from a basic type stored in place by the first 24 bits of the word (SimpleTypeBlob: a union of the
   flags and the offset; positions of reserved and reserved2 from the regenerated layout) *)
Definition word_field (o : Z) (f : N * N) : Z := (o / 2 ^ Z.of_N (fst f)) mod 2 ^ Z.of_N (snd f).

