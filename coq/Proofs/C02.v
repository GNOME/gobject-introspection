From Coq Require Import List Bool String.
From GIV.Lib Require Import Str.
From GIV.Model Require Import C02.
Import ListNotations.

(* the documented spellings, on the table of the current source *)
Definition documented : list (string * string) :=
  [("int", "gint"); ("unsigned int", "guint"); ("unsigned", "guint"); ("char", "gchar"); ("signed char", "gint8");
   ("unsigned char", "guint8"); ("short", "gshort"); ("unsigned short", "gushort"); ("long", "glong");
   ("unsigned long", "gulong"); ("float", "gfloat"); ("double", "gdouble"); ("_Bool", "gboolean"); ("bool", "gboolean");
   ("char*", "utf8"); ("gchar*", "utf8"); ("void*", "gpointer"); ("void", "none"); ("gconstpointer", "gpointer");
   ("int8_t", "gint8"); ("uint8_t", "guint8"); ("int16_t", "gint16"); ("uint16_t", "guint16"); ("int32_t", "gint32");
   ("uint32_t", "guint32"); ("int64_t", "gint64"); ("uint64_t", "guint64"); ("size_t", "gsize"); ("ssize_t", "gssize");
   ("guchar", "guint8"); ("goffset", "gint64"); ("gunichar2", "guint16"); ("gint", "gint"); ("guint64", "guint64");
   ("gboolean", "gboolean"); ("GType", "GType"); ("gunichar", "gunichar"); ("gsize", "gsize"); ("gdouble", "gdouble");
   ("int*", "gint"); ("gint**", "gint"); ("char**", "utf8")]%string.

Definition maps_to (c g : string) : bool :=
  match type_of_ctype (s c) false with GFund n => str_eqb n (s g) | _ => false end.

(* the spelling of a pointer that the type lookup sees: neither the pointer's own `const` nor its place (parameter or
   not) enters *)
Lemma source_type_pointer t c p : source_type (CPointer t c) p = source_type t false ++ [star].
Proof. reflexivity. Qed.

(* the classes that make a parameter the callback in force for those after it. [is_cb] of the model also counts
   GDestroyNotify, which is attached to a callback and never in force itself. *)
Definition is_callback_class (p : param) : bool :=
  match p.(p_class) with Some KCallback | Some KAsyncReady => true | _ => false end.

(* the callback "in force" at position k of the loop started at index i with [cur] *)
Fixpoint in_force (ps : list param) (i : nat) (cur : option nat) (k : nat) : option nat :=
  match k, ps with
  | O, _ => cur
  | S k', p :: t => in_force t (S i) (if is_callback_class p then Some i else cur) k'
  | S _, [] => cur
  end.

Lemma pair_loop_cons p t i cur :
  pair_loop (p :: t) i cur =
  match cur with
  | Some c => if is_cb p then match p_class p with Some KDestroyNotify => [UDestroy c (p_name p)] | _ => [] end
              else if is_any p && ends_with_data (p_name p) then [UClosure c (p_name p)] else []
  | None => []
  end ++ pair_loop t (S i) (if is_callback_class p then Some i else cur).
Proof.
  unfold is_cb, is_callback_class. cbn [pair_loop].
  destruct (p_class p) as [[]|], cur, (is_any p && ends_with_data (p_name p)); reflexivity.
Qed.
