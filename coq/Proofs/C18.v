From Coq Require Import List Arith Bool Lia.
From GIV.Lib Require Import Facts.
From GIV.Model Require Import C18.
Import ListNotations.

(* Two schedules on which the code as found serves stale data.
   (a) the source changes between a storer's parse and its write: the entry is newer than the
       source but holds the old parse; a later load returns it *)
Definition witness_a : list event :=
  [Spawn; Step 0; Step 0; Modify; Step 0; Step 0; Step 0; Step 0; Step 0;
   Spawn; Step 1; Step 1; Step 1; Step 1].
(* (b) a loader has opened the old entry; a storer renames a fresh one into place; the loader
       validates the NEW file by path and unpickles the OLD inode *)
Definition witness_b : list event :=
  [Spawn; Step 0; Step 0; Step 0; Step 0; Step 0; Step 0; Step 0;     (* entry for version 0 *)
   Modify;
   Spawn; Step 1;                                                     (* loader opens the old entry *)
   Spawn; Step 2; Step 2; Step 2; Step 2; Step 2; Step 2; Step 2; Step 2; Step 2; Step 2;  (* storer replaces it *)
   Step 1; Step 1; Step 1].

Definition stale (s : st) (pid : nat) : bool :=
  match result_of s pid with
  | Some r => negb (existsb (Nat.eqb r) (seen_of s pid))
  | None => false
  end.

Definition running (p : proc) : bool := p_alive p && negb (is_done (p_pc p)).

Lemma running_same_alive p c : is_done c = false -> running {| p_pc := c; p_seen := p_seen p; p_alive := p_alive p |} = p_alive p.
Proof. intro H. unfold running. cbn. rewrite H. apply andb_true_r. Qed.

(* what a process at program counter [c] has established, [v] being the current source version
   and [seen] the versions that were current since the process started *)
Definition pc_fact (v : nat) (ino : nat -> option inode) (seen : list nat) (c : pc) : Prop :=
  match c with
  | Start | Opened _ | Miss => True
  | Statted i sm => exists n, ino i = Some n /\ sm = stamp n
  | Valid i => exists n, ino i = Some n /\ (complete n = true -> In (payload n) seen)
  | PStat m0 => m0 <= v
  | Parsed m0 r | SChk m0 r _ | SHalf m0 r _ | SFull m0 r _ => m0 <= r <= v /\ In r seen
  | SStamped m0 r t => m0 <= r <= v /\ In r seen /\ t = {| payload := r; stamp := m0; complete := true |}
  | Done r => In r seen
  end.

Definition pc_ok (v : nat) (ino : nat -> option inode) (p : proc) : Prop :=
  (running p = true -> In v (p_seen p)) /\ pc_fact v ino (p_seen p) (p_pc p).

(* a readable inode is a parse of a version not newer than the source, stamped not later than it *)
Definition inode_ok (v : nat) (n : inode) : Prop := complete n = true -> stamp n <= payload n <= v.

(* The invariant reads five fields of the state; the entry name and the pid counter play no part. *)
Record inv (c v : nat) (ino : nat -> option inode) (nx : nat) (ps : nat -> option proc) : Prop := {
  i_clock : v < c;
  i_fresh : forall i, nx <= i -> ino i = None;
  i_inode : forall i n, ino i = Some n -> inode_ok v n;
  i_procs : forall pid p, ps pid = Some p -> pc_ok v ino p }.

Definition Inv (s : st) : Prop := inv (clock s) (src s) (inodes s) (next_inode s) (procs s).

Lemma inv_init : Inv init.
Proof. split; cbn; [apply le_n|reflexivity|discriminate..]. Qed.

Lemma upd_other {A} (f : nat -> option A) k a x : x <> k -> upd f k a x = f x.
Proof. unfold upd. intro H. destruct (Nat.eqb_spec x k); [contradiction|reflexivity]. Qed.

Lemma upd_all {A} (P : A -> Prop) f k a :
  P a -> (forall x b, f x = Some b -> P b) -> forall x b, upd f k a x = Some b -> P b.
Proof. intros Ha Hf x b. unfold upd. destruct (Nat.eqb x k); [intros [= <-]; exact Ha|apply Hf]. Qed.

Lemma pc_fact_mono v v' ino ino' seen seen' c :
  v <= v' -> (forall i n, ino i = Some n -> ino' i = Some n) -> incl seen seen' ->
  pc_fact v ino seen c -> pc_fact v' ino' seen' c.
Proof.
  intros Hv Hino Hseen. unfold incl in Hseen. destruct c; cbn.
  (* Statted, Valid: the inode is still there *)
  3, 4: intros (n & Hn & Hs); exists n; auto.
  (* the others are True, or made of bounds by v, which v <= v' weakens, and of memberships in seen, which Hseen carries over *)
  all: intuition (auto; lia).
Qed.

Lemma inv_tick c v ino nx ps : inv c v ino nx ps -> inv (S c) v ino nx ps.
Proof. intros [H0 Hf Hi Hp]. split; [lia|assumption..]. Qed.

Lemma inv_upd_proc c v ino nx ps pid q : inv c v ino nx ps -> pc_ok v ino q -> inv c v ino nx (upd ps pid q).
Proof. intros [H0 Hf Hi Hp] Hq. split; try assumption. apply upd_all; assumption. Qed.

Lemma inv_new_inode c v ino nx ps t : inv c v ino nx ps -> inode_ok v t -> inv c v (upd ino nx t) (S nx) ps.
Proof.
  intros [H0 Hf Hi Hp] Ht. split.
  - exact H0.
  - intros i Hle. rewrite upd_other by lia. apply Hf. lia.
  - apply upd_all; assumption.
  - intros pid p Hpid. destruct (Hp pid p Hpid) as [Hrun Hpc]. split; [exact Hrun|].
    apply pc_fact_mono with v ino (p_seen p); [apply le_n| |apply incl_refl|exact Hpc].
    intros i n Hn. rewrite upd_other; [exact Hn|]. intros ->. rewrite Hf in Hn by apply le_n. discriminate.
Qed.

(* Modify: the new version becomes current during every running operation *)
Lemma pc_ok_modify v v' ino p : v <= v' -> pc_ok v ino p ->
  pc_ok v' ino (if running p then {| p_pc := p_pc p; p_seen := v' :: p_seen p; p_alive := true |} else p).
Proof.
  intros Hv [Hrun Hpc]. destruct (running p) eqn:Er; split.
  - intros _. left. reflexivity.
  - apply pc_fact_mono with v ino (p_seen p); [exact Hv|auto|apply incl_tl, incl_refl|exact Hpc].
  - rewrite Er. discriminate.
  - apply pc_fact_mono with v ino (p_seen p); [exact Hv|auto|apply incl_refl|exact Hpc].
Qed.

(* a step of a process that has seen the current version: only the fact of the new pc is owed *)
Lemma inv_set_pc s pid p : Inv s -> In (src s) (p_seen p) ->
  forall c, pc_fact (src s) (inodes s) (p_seen p) c -> Inv (set_pc s pid p c).
Proof. intros HI Hsrc c Hc. apply inv_tick, inv_upd_proc; [exact HI|]. split; [intros _; exact Hsrc|exact Hc]. Qed.

Lemma inv_proc_step s pid p : Inv s -> procs s pid = Some p -> p_alive p = true -> Inv (proc_step true s pid p).
Proof.
  intros HI Hpid Hal. pose proof HI as [_ _ Hi Hp]. destruct (Hp pid p Hpid) as [Hsrc Hpc].
  unfold running in Hsrc. rewrite Hal in Hsrc. unfold proc_step.
  destruct (p_pc p) as [|i|i sm|i| |m0|m0 r|m0 r sm|m0 r t|m0 r t|m0 r t|r]; cbn in Hsrc, Hpc.
  1-11: specialize (Hsrc eq_refl); pose proof (inv_set_pc s pid p HI Hsrc) as Hset.
  - (* Start *) destruct (entry s); apply Hset; exact I.
  - (* Opened *) unfold stamp_of. destruct (inodes s i) as [n|] eqn:En; apply Hset; [|exact I]. exists n. auto.
  - (* Statted: an entry accepted as valid holds the current version *)
    destruct Hpc as (n & Hn & ->).
    destruct (Nat.leb_spec (src s) (stamp n)) as [Hle|_]; apply Hset; [|exact I].
    exists n. split; [exact Hn|]. intro Hc. specialize (Hi i n Hn Hc).
    replace (payload n) with (src s) by lia. exact Hsrc.
  - (* Valid *) destruct Hpc as (n & -> & Hseen). destruct (complete n).
    + apply Hset, Hseen. reflexivity.
    + (* unreadable: the new state is [set_pc s pid p Miss] with the entry name removed, and Inv does not read [entry] *)
      apply (Hset Miss). exact I.
  - (* Miss *) apply Hset, le_n.
  - (* PStat *) apply Hset. cbn. auto.
  - (* Parsed *) apply Hset, Hpc.
  - (* SChk: the entry is current and the store returns, or the temporary file is begun *)
    destruct (match sm with Some m => src s <=? m | None => false end); [apply Hset, (proj2 Hpc)|apply Hset, Hpc].
  - (* SHalf *) apply Hset, Hpc.
  - (* SFull: utime (tmp, m0) *)
    apply Hset. cbn. tauto.
  - (* SStamped: rename *)
    destruct Hpc as (Hr & Hseen & ->). apply inv_new_inode; [apply Hset, Hseen|intros _; exact Hr].
  - (* Done *) apply inv_tick, HI.
Qed.

Theorem inv_step s e : Inv s -> Inv (step true s e).
Proof.
  intro HI. destruct e as [|pid| |pid| |]; cbn [step].
  - apply inv_tick, inv_upd_proc; [exact HI|]. split; [intros _; left; reflexivity|exact I].
  - destruct (procs s pid) as [p|] eqn:Ep; [|apply inv_tick; exact HI].
    destruct (p_alive p) eqn:Ea; [apply inv_proc_step; assumption|apply inv_tick; exact HI].
  - destruct HI as [H0 Hf Hi Hp]. split; cbn.
    + apply le_n.
    + exact Hf.
    + intros i n Hn Hc. specialize (Hi i n Hn Hc). lia.
    + intros pid p'. destruct (procs s pid) as [p|] eqn:Ep; [|discriminate]. intros [= <-].
      apply pc_ok_modify with (src s); [lia|exact (Hp pid p Ep)].
  - destruct (procs s pid) as [p|] eqn:Ep; [|apply inv_tick; exact HI].
    apply inv_tick, inv_upd_proc; [exact HI|]. split; [discriminate|exact (proj2 (i_procs _ _ _ _ _ HI pid p Ep))].
  - apply inv_tick. exact HI.
  - apply inv_tick, inv_new_inode; [exact HI|discriminate].
Qed.

Theorem inv_run evs : Inv (run true evs).
Proof. unfold run. apply fold_left_invariant; [intros s e _; apply inv_step|apply inv_init]. Qed.
