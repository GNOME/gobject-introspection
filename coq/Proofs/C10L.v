From Coq Require Import List NArith.
From GIV.Model Require Import C10B C10BSpec.
Import ListNotations.
Local Open Scope N_scope.

(* Facts about split_breaks_aux (Model/C10B.v).  C10: the three line-ending conventions cut a comment into the same
   lines.  The flag of split_breaks_aux ("the last character was a CR") matters only in front of an LF: it is followed
   through the text as far as needed to know that it is clear whenever LF alone separates the lines.  At the end, what
   C11 (Props/C11.v) needs of the lines of any text: there is at least one, and none contains a line feed. *)

Lemma aux_plain l : forall rest cur a, plain_line l ->
  exists a', split_breaks_aux (l ++ rest) cur a = split_breaks_aux rest (rev l ++ cur) a' /\ (a = false -> a' = false).
Proof.
  induction l as [|c t IH]; intros rest cur a Hp; [exists a; auto|].
  apply Forall_cons_iff in Hp as [[H10 H13] Ht]. apply N.eqb_neq in H10, H13.
  destruct (IH rest (c :: cur) false Ht) as (a' & E & Ha). exists a'.
  cbn [app split_breaks_aux rev]. rewrite H13, H10, E, <- app_assoc. auto.
Qed.

Lemma aux_sep sep rest cur a : sep_ok sep -> (sep = [10] -> a = false) ->
  exists a', split_breaks_aux (sep ++ rest) cur a = rev cur :: split_breaks_aux rest [] a' /\ (sep = [10] -> a' = false).
Proof.
  intros [-> | [-> | ->]] Ha.
  - exists false. rewrite (Ha eq_refl). auto.
  - exists true. split; [reflexivity | discriminate].
  - exists false. auto.
Qed.

Lemma split_breaks_join_lines sep : sep_ok sep -> forall ls a, (sep = [10] -> a = false) -> ls <> [] -> Forall plain_line ls ->
  split_breaks_aux (join_lines sep ls) [] a = ls.
Proof.
  intros Hs. induction ls as [|l t IH]; intros a Ha Hn Hp; [contradiction|]. apply Forall_cons_iff in Hp as [Hl Ht].
  destruct t as [|l2 t].
  - cbn [join_lines]. rewrite <- (app_nil_r l) at 1. destruct (aux_plain l [] [] a Hl) as (a' & -> & _).
    cbn [split_breaks_aux]. rewrite app_nil_r, rev_involutive. reflexivity.
  - change (join_lines sep (l :: l2 :: t)) with (l ++ sep ++ join_lines sep (l2 :: t)).
    destruct (aux_plain l (sep ++ join_lines sep (l2 :: t)) [] a Hl) as (a1 & -> & H1).
    destruct (aux_sep sep (join_lines sep (l2 :: t)) (rev l ++ []) a1 Hs) as (a2 & -> & H2); [auto|].
    rewrite app_nil_r, rev_involutive, IH by (auto; discriminate). reflexivity.
Qed.

Lemma split_breaks_aux_nonempty : forall x cur a, split_breaks_aux x cur a <> [].
Proof.
  induction x as [|c t IH]; intros cur a; cbn [split_breaks_aux]; [discriminate|].
  destruct (N.eqb c 13); [discriminate|]. destruct (N.eqb c 10); [|apply IH]. destruct a; [apply IH|discriminate].
Qed.

Lemma split_breaks_aux_no_lf : forall x cur a, no_lf cur -> Forall no_lf (split_breaks_aux x cur a).
Proof.
  induction x as [|c t IH]; intros cur a Hc; cbn [split_breaks_aux]; pose proof (Forall_rev Hc) as Hr.
  - constructor; [exact Hr|constructor].
  - destruct (N.eqb c 13); [constructor; [exact Hr|apply IH; constructor]|].
    destruct (N.eqb_spec c 10) as [_|E10]; [|apply IH; constructor; assumption].
    destruct a; [apply IH; exact Hc|constructor; [exact Hr|apply IH; constructor]].
Qed.
