From Coq Require Import List Arith Bool Lia.
From GIV.Lib Require Import Facts.
From GIV.Model Require Import C18V.
Import ListNotations.

(* program counters before the purge is complete *)
Definition early (c : vpc) : bool := match c with VRead | VList | VUnlink => true | _ => false end.
(* the entry [e], if there is one, was pickled by the current scanner version [c] *)
Definition good (e : option nat) (c : nat) : Prop := e = None \/ e = Some c.

(* an active process is of the current version, and once it is past the purge the entry is good *)
Definition proc_ok (c : nat) (e : option nat) (p : vproc) : Prop :=
  active p = true -> pv p = c /\ (early (ppc p) = false -> good e c).

(* The invariant is stated over the fields of the state, so that an event that changes two of them is covered by two
   of the lemmas below. *)
Record inv (c : nat) (vf e : option nat) (ps : list vproc) (sv : list (nat * nat)) : Prop := {
  i_procs : Forall (proc_ok c e) ps;
  i_file : vf = Some c -> good e c;
  i_le : forall v, vf = Some v -> v <= c;
  i_served : Forall (fun pr => fst pr = snd pr) sv }.

Definition Inv (s : vstate) : Prop := inv (cur s) (verfile s) (entry s) (procs s) (served s).

Lemma Forall_upd {A} (P : A -> Prop) f : forall l i,
  Forall P l -> (forall x, nth_error l i = Some x -> P (f x)) -> Forall P (upd i f l).
Proof.
  induction l as [|x t IH]; intros i H Hf; [destruct i; constructor|].
  apply Forall_cons_iff in H as [Hx Ht]. destruct i; cbn.
  - constructor; [apply Hf; reflexivity|exact Ht].
  - constructor; [exact Hx|]. apply IH; [exact Ht|]. intros y Hy. apply Hf. exact Hy.
Qed.

Lemma Forall_nth {A} (P : A -> Prop) l i x : Forall P l -> nth_error l i = Some x -> P x.
Proof. intros H Hn. rewrite Forall_forall in H. apply H. eapply nth_error_In; eassumption. Qed.

Lemma onat_eqb_true a b : onat_eqb a b = true -> a = Some b.
Proof. destruct a as [x|]; cbn; [|discriminate]. intros H. apply Nat.eqb_eq in H. congruence. Qed.

Lemma active_set_pc c p : ppc p <> VDone -> c <> VDone -> active (set_pc c p) = active p.
Proof. intros H1 H2. unfold active, set_pc; cbn. destruct (ppc p), c; try reflexivity; congruence. Qed.

Lemma inv_init : Inv vinit.
Proof. constructor; cbn; [constructor | left; reflexivity | discriminate | constructor]. Qed.

Lemma inv_procs {c vf e ps sv} ps' : inv c vf e ps sv -> Forall (proc_ok c e) ps' -> inv c vf e ps' sv.
Proof. intros [_ Hfile Hle Hserved] Hps. constructor; assumption. Qed.

Lemma inv_entry {c vf e ps sv} e' : inv c vf e ps sv -> good e' c -> inv c vf e' ps sv.
Proof.
  intros [Hps Hfile Hle Hserved] G. constructor; auto.
  eapply Forall_impl; [|exact Hps]. intros p Hp Ha. split; [apply Hp, Ha|auto].
Qed.

Lemma inv_set_pc {c vf e ps sv} i p k : inv c vf e ps sv -> nth_error ps i = Some p -> active p = true ->
  (early k = false -> good e c) -> inv c vf e (upd i (set_pc k) ps) sv.
Proof.
  intros H Hp Ha Hk. apply (inv_procs _ H). destruct H as [Hps _ _ _]. apply Forall_upd; [exact Hps|].
  intros x Hx _. rewrite Hp in Hx. injection Hx as <-. split; [|exact Hk].
  apply (Forall_nth _ _ _ _ Hps Hp Ha).
Qed.

(* store, load and finish act only for an active process at VRun: it is of the current version, and the entry is good *)
Lemma inv_at_run s i (k : vproc -> vstate) : Inv s ->
  (forall p, nth_error (procs s) i = Some p -> active p = true -> pv p = cur s -> good (entry s) (cur s) -> Inv (k p)) ->
  Inv (match nth_error (procs s) i with
       | Some p => if active p && match ppc p with VRun => true | _ => false end then k p else s
       | None => s
       end).
Proof.
  intros H Hk. destruct (nth_error (procs s) i) as [p|] eqn:Hp; [|exact H].
  destruct (active p) eqn:Ha; [|exact H]. destruct (ppc p) eqn:Hpc; try exact H.
  destruct (Forall_nth _ _ _ _ (i_procs _ _ _ _ _ H) Hp Ha) as [Hpv Hlate]. rewrite Hpc in Hlate. apply Hk; auto.
Qed.

Lemma inv_step s e : Inv s -> Inv (vstep s e).
Proof.
  intros H. pose proof H as [Hps Hfile Hle Hserved]. destruct e as [|i|i|i|i|i|]; cbn [vstep with_procs].
  - (* spawn: the new process is of the current version and before the purge *)
    apply (inv_procs _ H). apply Forall_app. split; [exact Hps|]. constructor; [|constructor].
    intros _. split; [reflexivity|discriminate].
  - (* a step of the version check *)
    destruct (nth_error (procs s) i) as [p|] eqn:Hp; [|exact H].
    destruct (active p) eqn:Ha; cbn [negb]; [|exact H].
    destruct (Forall_nth _ _ _ _ Hps Hp Ha) as [Hpv Hlate].
    destruct (ppc p) eqn:Hpc; [..|exact H|exact H].
    + (* VRead: the purge is skipped only if the version file is current *)
      apply (inv_set_pc i p _ H Hp Ha).
      destruct (onat_eqb (verfile s) (pv p)) eqn:Hv; [intros _|discriminate].
      apply Hfile. rewrite <- Hpv. apply onat_eqb_true, Hv.
    + (* VList: the purge is skipped only if there is no entry *)
      apply (inv_set_pc i p _ H Hp Ha). destruct (entry s); [discriminate|]. left. reflexivity.
    + (* VUnlink: the entry is removed, which suits every process, and process i moves on *)
      apply (inv_set_pc i p VWrite (inv_entry None H (or_introl eq_refl)) Hp Ha). intros _. left. reflexivity.
    + (* VWrite: the process is past the purge, so the entry is good *)
      specialize (Hlate eq_refl). constructor; cbn.
      * exact (i_procs _ _ _ _ _ (inv_set_pc i p VRun H Hp Ha (fun _ => Hlate))).
      * intros _. exact Hlate.
      * intros v [= <-]. rewrite Hpv. apply le_n.
      * exact Hserved.
  - (* store: the new entry is of the current version *)
    apply inv_at_run; [exact H|]. intros p _ _ Hpv _.
    apply (inv_entry _ H). right. rewrite Hpv. reflexivity.
  - (* load: only the entry that the match inspects is rewritten; the new state keeps the field [entry s], so that
       the parts of H fit as they are *)
    apply inv_at_run; [exact H|]. intros p _ _ Hpv [G|G]; rewrite G at 1.
    + exact H.
    + constructor; [exact Hps|exact Hfile|exact Hle|]. constructor; [exact Hpv|exact Hserved].
  - (* finish *)
    apply inv_at_run; [exact H|]. intros p Hp Ha _ G. apply (inv_set_pc i p VDone H Hp Ha). intros _. exact G.
  - (* kill: a process that is not active owes nothing *)
    apply (inv_procs _ H). apply Forall_upd; [exact Hps|]. intros x _ F. discriminate.
  - (* upgrade: only while no process is active *)
    destruct (existsb active (procs s)) eqn:Hex; [exact H|].
    constructor; cbn.
    + apply Forall_forall. intros p Hp Ha.
      assert (existsb active (procs s) = true) by (apply existsb_exists; exists p; auto). congruence.
    + intros F. apply Hle in F. lia.
    + intros v Hv. apply Hle in Hv. lia.
    + exact Hserved.
Qed.

Theorem inv_run evs : Inv (vrun evs).
Proof. unfold vrun. apply fold_left_invariant; [intros s e _; apply inv_step|apply inv_init]. Qed.

Example version_run_nontrivial :
  served (vrun [VSpawn; VStep 0; VStep 0; VStep 0; VStore 0; VLoad 0; VFinish 0; VUpgrade;
                VSpawn; VStep 1; VStep 1; VStep 1; VStep 1; VLoad 1; VStore 1; VLoad 1]) = [(1, 1); (0, 0)].
Proof. vm_compute. reflexivity. Qed.
