From Coq Require Import List NArith Bool.
From GIV.Lib Require Import Regex Str Facts.
From GIV.Model Require Import C10.
Import ListNotations.

(* Facts about the string helpers of Model/C10.v: lstrip and strip, join_sp, split_sp and split1. *)

Lemma space_is_space : is_space sp = true.
Proof. vm_compute. reflexivity. Qed.

Lemma lstrip_blanks ws x : forallb is_space ws = true -> lstrip (ws ++ x) = lstrip x.
Proof.
  induction ws as [|c t IH]; intros H; [reflexivity|].
  cbn [forallb] in H. apply andb_true_iff in H as [Hc Ht]. cbn [app lstrip]. rewrite Hc. exact (IH Ht).
Qed.

Lemma strip_blanks ws x : forallb is_space ws = true -> strip (ws ++ x) = strip x.
Proof. intros H. unfold strip. rewrite lstrip_blanks by exact H. reflexivity. Qed.

Lemma segment_lstrip x : segment (lstrip x) x.
Proof.
  induction x as [|c t IH]; [apply segment_refl|]. cbn [lstrip]. destruct (is_space c); [|apply segment_refl].
  exact (segment_trans _ _ _ IH (segment_tl c t)).
Qed.

Lemma segment_strip x : segment (strip x) x.
Proof.
  apply segment_trans with (lstrip x); [|apply segment_lstrip].
  unfold strip. rewrite <- (rev_involutive (lstrip x)) at 2. apply segment_rev, segment_lstrip.
Qed.

(* x has a first and a last character and neither is a blank (the default of hd is a blank, which excludes the empty string) *)
Definition trimmed (x : str) : Prop := is_space (hd sp x) = false /\ is_space (hd sp (rev x)) = false.

Lemma lstrip_id x : is_space (hd sp x) = false -> lstrip x = x.
Proof. destruct x as [|c t]; [reflexivity|]. cbn [hd lstrip]. intros ->. reflexivity. Qed.

Lemma strip_trimmed x : trimmed x -> strip x = x.
Proof. intros [H1 H2]. unfold strip. rewrite (lstrip_id x H1), (lstrip_id (rev x) H2). apply rev_involutive. Qed.

Lemma hd_app_nonblank x y : is_space (hd sp x) = false -> hd sp (x ++ y) = hd sp x.
Proof. destruct x; [cbn [hd]; rewrite space_is_space; discriminate | reflexivity]. Qed.

Lemma trimmed_mid x m y : trimmed x -> trimmed y -> trimmed (x ++ m ++ y).
Proof.
  intros [Hx _] [_ Hy]. split.
  - rewrite hd_app_nonblank; exact Hx.
  - rewrite !rev_app_distr, <- app_assoc, hd_app_nonblank; exact Hy.
Qed.

Lemma trimmed_no_blank x : x <> [] -> Forall (fun c => is_space c = false) x -> trimmed x.
Proof.
  intros Hne H. split; apply (hd_Forall (fun c => is_space c = false)); try assumption.
  - intros E. apply Hne. rewrite <- (rev_involutive x), E. reflexivity.
  - apply Forall_rev, H.
Qed.

Lemma join_sp_cons x l : join_sp (x :: l) = x ++ flat_map (fun y => sp :: y) l.
Proof.
  revert x. induction l as [|y t IH]; intros x; [cbn; rewrite app_nil_r; reflexivity|].
  change (join_sp (x :: y :: t)) with (x ++ sp :: join_sp (y :: t)). rewrite IH. reflexivity.
Qed.

Lemma join_sp_nonempty x l : x <> [] -> join_sp (x :: l) <> [].
Proof. intros Hne E. rewrite join_sp_cons in E. apply app_eq_nil in E as [E _]. contradiction. Qed.

Lemma join_sp_trimmed x l : Forall trimmed (x :: l) -> trimmed (join_sp (x :: l)).
Proof.
  revert x. induction l as [|y t IH]; intros x H; apply Forall_cons_iff in H as [Hx Ht]; [exact Hx|].
  apply (trimmed_mid x [sp]); [exact Hx | exact (IH y Ht)].
Qed.

Lemma join_sp_eq l : join_sp l = join [sp] l.
Proof. induction l as [|x [|y t] IH]; [reflexivity..|]. cbn [join_sp join app] in *. rewrite IH. reflexivity. Qed.

(* words without a space, joined by single spaces, are what split(' ') gives back *)
Lemma split_sp_join w l cur : Forall (fun w => forallb (fun c => negb (N.eqb c sp)) w = true) (w :: l) ->
  split_sp (join_sp (w :: l)) cur = (rev cur ++ w) :: l.
Proof.
  intro H. rewrite join_sp_eq. apply (split_join sp split_sp); [reflexivity..|].
  exact (Forall_impl _ (fun w => proj1 (forallb_neqb sp w)) H).
Qed.

(* split(c, 1) of a text whose first c stands behind x, and of one without c *)
Lemma split1_nosep c x : forall cur rest, forallb (fun d => negb (N.eqb d c)) x = true ->
  split1 c (x ++ c :: rest) cur = (rev cur ++ x, Some rest) /\ split1 c x cur = (rev cur ++ x, None).
Proof.
  induction x as [|d t IH]; intros cur rest H.
  - cbn. rewrite N.eqb_refl, app_nil_r. split; reflexivity.
  - cbn [forallb] in H. apply andb_true_iff in H as [Hd Ht]. apply negb_true_iff in Hd.
    cbn [app split1]. rewrite Hd. destruct (IH (d :: cur) rest Ht) as [-> ->]. cbn [rev]. rewrite <- app_assoc. split; reflexivity.
Qed.
