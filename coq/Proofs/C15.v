From Coq Require Import List NArith Bool String.
From GIV.Gen Require Import GirVocab.
From GIV.Model Require Import C02 C02Spec C15.
Local Open Scope N_scope.

(* every element the writer can emit is one the compiler's reader recognises: finite check on the
   regenerated vocabularies *)
Lemma vocabulary_contract : forallb known_to_parser writer_elements = true.
Proof. vm_compute. reflexivity. Qed.

(* the in and out flags the compiler stores for a direction *)
Definition dir_in (d : direction) : bool := match d with DOut => false | _ => true end.
Definition dir_out (d : direction) : bool := match d with DIn => false | _ => true end.

(* the transfer attribute as the writer spells it, read back as the compiler's code *)
Lemma transfer_roundtrip t (skip : bool) :
  transfer_code (match tr_str t with Some x => Some x | None => if skip then Some (s "none") else None end)
  = match t with Some TNone => Some 0 | Some TContainer => Some 1 | Some TFull => Some 2
                 | None => if skip then Some 0 else None end.
Proof. destruct t as [[]|]; [| | |destruct skip]; reflexivity. Qed.

(* allow-none written next to nullable and optional, as the writer does it, tells the repaired reader nothing *)
Lemma allow_none_unused n o x : ((n && negb x) || (o && x)) && negb (n || o) = false.
Proof. destruct n, o, x; reflexivity. Qed.
