From Coq Require Import List NArith Bool.
From GIV.Lib Require Import Regex Str Facts.
From GIV.Model Require Import C07T C15T C06K.
From GIV.Proofs Require Import C07T C15T.
Import ListNotations.
Local Open Scope N_scope.

Lemma first_sep (c : N) : forall a b x y, ~ In c a -> ~ In c b -> a ++ c :: x = b ++ c :: y -> a = b /\ x = y.
Proof. exact (app_sep_inj c). Qed.

Lemma last_sep (c : N) a b x y : ~ In c x -> ~ In c y -> a ++ c :: x = b ++ c :: y -> a = b /\ x = y.
Proof. apply app_sep_inj_last. Qed.

Lemma dec_inj a b : dec a = dec b -> a = b.
Proof. intro E. apply (f_equal undec) in E. rewrite !undec_dec in E. injection E as E. exact E. Qed.

(* the number is read back by atoi, which stops at what does not begin with a digit *)
Lemma num_tail la lb (r1 r2 : str) :
  match r1 with [] => True | c :: _ => is_digit c = false end ->
  match r2 with [] => True | c :: _ => is_digit c = false end ->
  dec la ++ r1 = dec lb ++ r2 -> la = lb /\ r1 = r2.
Proof.
  intros H1 H2 E. assert (H : la = lb).
  { apply (f_equal catoi) in E. rewrite !catoi_dec in E by assumption. exact E. }
  subst lb. split; [reflexivity|exact (app_inv_head _ _ _ E)].
Qed.

(* a dimension of the key: keyword, number, and then nothing or a tail that does not begin with a digit *)
Lemma dim_inj (p t : str) n m (za zb : bool) : match t with [] => False | c :: _ => is_digit c = false end ->
  (p ++ dec n) ++ (if za then t else []) = (p ++ dec m) ++ (if zb then t else []) -> n = m /\ za = zb.
Proof.
  intros Ht E. rewrite <- !app_assoc in E. apply app_inv_head in E. apply num_tail in E as [-> E].
  - split; [reflexivity|]. destruct t; [contradiction|]. destruct za, zb; try reflexivity; discriminate E.
  - destruct za, t; trivial.
  - destruct zb, t; trivial.
Qed.

Lemma key_dims_inj a b : key_dims a = key_dims b -> ka_ptr a = ka_ptr b -> blob_carray true a = blob_carray true b.
Proof.
  unfold key_dims, blob_carray. destruct a as [ea hla la hsa sa za pa], b as [eb hlb lb hsb sb zb pb].
  cbn [ka_has_len ka_len ka_has_size ka_size ka_zero ka_ptr]. intros E ->.
  (* by the kind of dimension on each side.  The same kind: dim_inj.  Two kinds: a key begins with 'l' (length=), 'f'
     (fixed-size=) or 'z' (zero-terminated=1) or is empty, so with the remaining flags fixed the two differ at once *)
  destruct hla, hlb.
  - (* the tail after the number is ",zero-terminated=1": ',' (44) is no digit *)
    apply dim_inj in E as [-> ->]; [|reflexivity]. rewrite !andb_false_r. reflexivity.
  - destruct hsb, zb; discriminate E.
  - destruct hsa, za; discriminate E.
  - destruct hsa, hsb.
    + apply dim_inj in E as [-> ->]; [|reflexivity]. reflexivity.
    + destruct zb; discriminate E.
    + destruct za; discriminate E.
    + destruct za, zb; try reflexivity; discriminate E.
Qed.

Lemma dec_no (c n : N) : is_digit c = false -> forallb (fun x => negb (x =? c)) (dec n) = true.
Proof.
  intro Hc. apply forallb_neqb. intro H. destruct (dec_spec n) as (_ & D & _). rewrite forallb_forall in D.
  rewrite (D c H) in Hc. discriminate Hc.
Qed.

(* '[' (91) and ']' (93) do not occur among the dimensions: in each of the eight forms of the key the printed number is set
   aside by dec_no, and the keywords are searched by computation *)
Lemma dims_no_bracket a : ~ In 91 (key_dims a) /\ ~ In 93 (key_dims a).
Proof.
  unfold key_dims. split; apply forallb_neqb.
  - destruct (ka_has_len a), (ka_has_size a), (ka_zero a); rewrite ?forallb_app, ?dec_no by reflexivity; reflexivity.
  - destruct (ka_has_len a), (ka_has_size a), (ka_zero a); rewrite ?forallb_app, ?dec_no by reflexivity; reflexivity.
Qed.

(* the key is  element '[' dimensions ']'  and then '*' (42) for a pointer: cut at the last '[', then at the first ']' *)
Theorem array_key_sound a b : key_carray a = key_carray b ->
  ka_elem a = ka_elem b /\ blob_carray true a = blob_carray true b.
Proof.
  unfold key_carray. intro E.
  assert (Hs : forall x, ~ In 91 (key_dims x ++ [93] ++ (if ka_ptr x then [42] else []))).
  { intros x [H|H]%in_app_or; [exact (proj1 (dims_no_bracket x) H)|].
    destruct (ka_ptr x); simpl in H; intuition discriminate. }
  apply last_sep in E as [Ee Et]; [|apply Hs..]. split; [exact Ee|].
  apply first_sep in Et as [Ed Ep]; [|apply dims_no_bracket..].
  apply key_dims_inj; [exact Ed|]. destruct (ka_ptr a), (ka_ptr b); try reflexivity; discriminate Ep.
Qed.
