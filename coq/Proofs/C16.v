From Coq Require Import List NArith Lia Permutation Sorting.Sorted.
From GIV.Lib Require Import Regex Str.
From GIV.Model Require Import C16.
Import ListNotations.
Local Open Scope N_scope.

Lemma str_leb_refl a : str_leb a a = true.
Proof. induction a as [|x t IH]; [reflexivity|]. cbn. rewrite N.ltb_irrefl. exact IH. Qed.

Lemma str_leb_cons x a y b : str_leb (x :: a) (y :: b) = true <-> x < y \/ x = y /\ str_leb a b = true.
Proof.
  cbn [str_leb]. destruct (N.ltb_spec x y) as [L|L]; [tauto|]. destruct (N.ltb_spec y x) as [M|M].
  - split; [discriminate | lia].
  - assert (x = y) as -> by lia. split; [auto | intros [L'|[_ H]]; [lia | exact H]].
Qed.

(* in the three proofs below the cases with an empty string compute *)
Lemma str_leb_total a : forall b, str_leb a b = true \/ str_leb b a = true.
Proof.
  induction a as [|x a IH]; intros [|y b]; try (cbn; tauto).
  rewrite !str_leb_cons. destruct (N.lt_total x y) as [L|[->|L]], (IH b); auto.
Qed.

Lemma str_leb_antisym a : forall b, str_leb a b = true -> str_leb b a = true -> a = b.
Proof.
  induction a as [|x a IH]; intros [|y b]; try (cbn; congruence).
  rewrite !str_leb_cons. intros [L1|[-> H1]] [L2|[E H2]]; try lia.
  f_equal. exact (IH b H1 H2).
Qed.

Lemma str_leb_trans a : forall b c, str_leb a b = true -> str_leb b c = true -> str_leb a c = true.
Proof.
  induction a as [|x a IH]; intros [|y b] [|z c]; try (cbn; congruence).
  rewrite !str_leb_cons. intros [L1|[-> H1]] [L2|[-> H2]]; [left; lia | left; lia | left; lia |].
  right. split; [reflexivity | exact (IH b c H1 H2)].
Qed.

(* a key is compared as the string that has the kind in front of the name *)
Lemma key_leb_str a b : key_leb a b = str_leb (fst a :: snd a) (fst b :: snd b).
Proof. reflexivity. Qed.

Section SortFacts.
  Context {A K : Type} (leb : A -> A -> bool) (kf : A -> K).
  Context (leb_total : forall a b, leb a b = true \/ leb b a = true)
          (leb_trans : forall a b c, leb a b = true -> leb b c = true -> leb a c = true)
          (leb_antisym : forall a b, leb a b = true -> leb b a = true -> kf a = kf b).

  Local Definition le (a b : A) : Prop := leb a b = true.

  Lemma insert_perm x l : Permutation (insert leb x l) (x :: l).
  Proof.
    induction l as [|y t IH]; [reflexivity|]. cbn. destruct (leb x y); [reflexivity|].
    rewrite IH. apply perm_swap.
  Qed.
  Lemma isort_perm l : Permutation (isort leb l) l.
  Proof. induction l as [|x t IH]; [reflexivity|]. cbn. rewrite insert_perm. constructor. exact IH. Qed.

  Lemma insert_sorted x l : StronglySorted le l -> StronglySorted le (insert leb x l).
  Proof.
    induction l as [|y t IH]; cbn; [repeat constructor|]. intros H.
    pose proof H as [Ht Hall]%StronglySorted_inv. destruct (leb x y) eqn:E.
    - constructor; [exact H|]. constructor; [exact E|].
      eapply Forall_impl; [|exact Hall]. intros a. apply leb_trans, E.
    - constructor; [exact (IH Ht)|]. rewrite insert_perm. constructor; [|exact Hall].
      destruct (leb_total x y); [congruence | assumption].
  Qed.
  Lemma isort_sorted l : StronglySorted le (isort leb l).
  Proof. induction l as [|x t IH]; cbn; [constructor|]. apply insert_sorted. exact IH. Qed.

  (* two sorted lists with the same elements begin with the same element: each head is below the
     other, so they have the same key, and that key occurs once *)
  Lemma sorted_perm_eq l1 : forall l2,
    StronglySorted le l1 -> StronglySorted le l2 -> Permutation l1 l2 -> NoDup (map kf l1) -> l1 = l2.
  Proof.
    induction l1 as [|a t1 IH]; intros l2 S1 S2 P Hnd.
    - apply Permutation_nil in P. subst. reflexivity.
    - destruct l2 as [|b t2]; [apply Permutation_sym, Permutation_nil in P; discriminate|].
      apply StronglySorted_inv in S1 as [S1t A1], S2 as [S2t A2]. cbn in Hnd. apply NoDup_cons_iff in Hnd as [Nin Nt].
      assert (E : a = b).
      { destruct (Permutation_in b (Permutation_sym P) (or_introl eq_refl)) as [E|Hb]; [exact E|].
        destruct (Permutation_in a P (or_introl eq_refl)) as [E|Ha]; [symmetry; exact E|].
        rewrite Forall_forall in A1, A2. destruct Nin.
        rewrite (leb_antisym a b (A1 b Hb) (A2 a Ha)). apply in_map, Hb. }
      subst b. f_equal. apply IH; try assumption. exact (Permutation_cons_inv P).
  Qed.

  Theorem isort_perm_invariant l l' :
    Permutation l l' -> NoDup (map kf l) -> isort leb l = isort leb l'.
  Proof.
    intros P Hnd. apply sorted_perm_eq; try apply isort_sorted.
    - rewrite !isort_perm. exact P.
    - rewrite isort_perm. exact Hnd.
  Qed.
End SortFacts.

Lemma isort_length {A} (leb : A -> A -> bool) l : List.length (isort leb l) = List.length l.
Proof. apply Permutation_length, isort_perm. Qed.
Lemma isort_in {A} (leb : A -> A -> bool) l x : In x l -> In x (isort leb l).
Proof. apply Permutation_in, Permutation_sym, isort_perm. Qed.

Lemma node_leb_total a b : node_leb a b = true \/ node_leb b a = true.
Proof. unfold node_leb. rewrite !key_leb_str. apply str_leb_total. Qed.
Lemma node_leb_trans a b c : node_leb a b = true -> node_leb b c = true -> node_leb a c = true.
Proof. unfold node_leb. rewrite !key_leb_str. apply str_leb_trans. Qed.
Lemma node_leb_antisym a b : node_leb a b = true -> node_leb b a = true -> node_key a = node_key b.
Proof.
  unfold node_leb. rewrite !key_leb_str. intros H1 H2. pose proof (str_leb_antisym _ _ H1 H2) as E.
  destruct (node_key a), (node_key b). cbn in E. congruence.
Qed.

Definition pos_id (p : position) : str * N := (p_file p, p_line p).

Lemma pos_leb_spec a b :
  pos_leb a b = true <-> str_leb (p_file a) (p_file b) = true /\ (p_file a = p_file b -> p_line a <= p_line b).
Proof.
  unfold pos_leb. destruct (str_eqb_spec (p_file a) (p_file b)) as [E|E]; [|tauto].
  rewrite N.leb_le, E, str_leb_refl. tauto.
Qed.

Lemma pos_leb_total a b : pos_leb a b = true \/ pos_leb b a = true.
Proof.
  unfold pos_leb. rewrite (str_eqb_sym (p_file b)).
  destruct (str_eqb (p_file a) (p_file b)); [rewrite !N.leb_le; lia | apply str_leb_total].
Qed.
Lemma pos_leb_antisym a b : pos_leb a b = true -> pos_leb b a = true -> pos_id a = pos_id b.
Proof.
  rewrite !pos_leb_spec. intros [F1 L1] [F2 L2]. pose proof (str_leb_antisym _ _ F1 F2) as E.
  unfold pos_id. f_equal; [exact E|]. apply N.le_antisymm; auto.
Qed.
Lemma pos_leb_trans a b c : pos_leb a b = true -> pos_leb b c = true -> pos_leb a c = true.
Proof.
  rewrite !pos_leb_spec. intros [F1 L1] [F2 L2]. split; [exact (str_leb_trans _ _ _ F1 F2)|]. intros E.
  assert (E1 : p_file a = p_file b) by (apply str_leb_antisym; [exact F1 | rewrite E; exact F2]).
  apply (N.le_trans _ (p_line b)); [apply L1, E1 | apply L2; congruence].
Qed.

(* the code as found depended on the iteration order of the set *)
Definition pA : position := {| p_file := [97]; p_line := 5; p_typedef := false |}.
Definition pB : position := {| p_file := [98]; p_line := 30; p_typedef := false |}.

(* the main position is a non-typedef position whenever there is one *)
Lemma main_pos_iter_prefers l q : In q l -> p_typedef q = false ->
  forall res p, main_pos_iter l res = Some p -> p_typedef p = false.
Proof.
  intros Hq Hf. induction l as [|x t IH]; intros res p; cbn; [destruct Hq|].
  destruct (p_typedef x) eqn:E; [|intros [= <-]; exact E].
  destruct Hq as [->|Hq]; [congruence | exact (IH Hq _ p)].
Qed.

Lemma blocks_lookup_app {B} (l1 l2 : list (str * B)) name acc :
  blocks_lookup (l1 ++ l2) name acc = blocks_lookup l2 name (blocks_lookup l1 name acc).
Proof. revert acc. induction l1 as [|[n b] t IH]; intros acc; [reflexivity|]. cbn. apply IH. Qed.

Lemma blocks_lookup_absent {B} (blocks : list (str * B)) name : forall acc,
  ~ In name (map fst blocks) -> blocks_lookup blocks name acc = acc.
Proof.
  induction blocks as [|[n b] t IH]; cbn; intros acc H; [reflexivity|].
  destruct (str_eqb_spec n name); [tauto | apply IH; tauto].
Qed.

Lemma blocks_lookup_unique {B} (blocks : list (str * B)) name b : forall acc,
  NoDup (map fst blocks) -> In (name, b) blocks -> blocks_lookup blocks name acc = Some b.
Proof.
  induction blocks as [|[n x] t IH]; cbn; intros acc Hnd H; [destruct H|].
  apply NoDup_cons_iff in Hnd as [Nin Nt]. destruct H as [[= -> ->]|H]; [|exact (IH _ Nt H)].
  rewrite str_eqb_refl. apply blocks_lookup_absent, Nin.
Qed.

Definition same_record (a b : rec) : Prop :=
  r_name a = r_name b /\ r_fields a = r_fields b /\ r_opaque a = r_opaque b /\ r_disguised a = r_disguised b
  /\ Permutation (r_positions a) (r_positions b).
