From Coq Require Import List NArith ZArith Bool.
From GIV.Lib Require Import Regex.
From GIV.Model Require Import C20 C20Spec.
Import ListNotations.
Local Open Scope N_scope.

Lemma mem_false c s : mem c s = false -> ~ In c s.
Proof.
  unfold mem. induction s as [|x t IH]; simpl; [tauto|].
  intros H [->|Hin]; [rewrite N.eqb_refl in H; discriminate|]. apply orb_false_iff in H as [_ H]. exact (IH H Hin).
Qed.

Lemma replace_flat c r (f : N -> str) s :
  replace_char c r (flat_map f s) = flat_map (fun x => replace_char c r (f x)) s.
Proof.
  unfold replace_char. induction s as [|x t IH]; simpl; [reflexivity|].
  rewrite flat_map_app, IH. reflexivity.
Qed.

Lemma replace_notin k r s : ~ In k s -> replace_char k r s = s.
Proof.
  unfold replace_char. induction s as [|x t IH]; simpl; intro H; [reflexivity|].
  destruct (N.eqb_spec x k) as [->|_]; [tauto|]. rewrite IH by tauto. reflexivity.
Qed.

(* The replace passes of escape and quoteattr, taken together, act character by character: a character
   that has an entry in a table is written as the string there, every other character as itself. *)
Fixpoint enc (T : list (N * str)) (c : N) : str :=
  match T with
  | [] => [c]
  | (k, r) :: T' => if N.eqb c k then r else enc T' c
  end.

Lemma enc_cases T c : (enc T c = [c] /\ ~ In c (map fst T)) \/ In (c, enc T c) T.
Proof.
  induction T as [|[k r] T IH]; simpl; [tauto|].
  destruct (N.eqb_spec c k) as [->|Hc]; [tauto|].
  destruct IH as [[E H]|H]; [left|tauto]. split; [exact E|]. intros [Hk|Hk]; [congruence|tauto].
Qed.

Definition unused (k : N) (T : list (N * str)) : Prop := Forall (fun e => mem k (snd e) = false) T.

(* one more pass, replacing a character that the strings written so far do not contain *)
Lemma replace_enc k r T s : unused k T ->
  replace_char k r (flat_map (enc T) s) = flat_map (enc (T ++ [(k, r)])) s.
Proof.
  intro HT. rewrite replace_flat. apply flat_map_ext. intro c.
  induction HT as [|[k' r'] T Hk _ IH]; simpl.
  - apply app_nil_r.
  - destruct (N.eqb c k'); [apply replace_notin, mem_false, Hk|exact IH].
Qed.

Lemma enc_avoids x T s : In x (map fst T) -> unused x T -> ~ In x (flat_map (enc T) s).
Proof.
  intros Hx HT Hin. apply in_flat_map in Hin as (c & _ & Hc).
  destruct (enc_cases T c) as [[E Hn]|H].
  - rewrite E in Hc. destruct Hc as [->|[]]. contradiction.
  - eapply Forall_forall in HT; [|exact H]. exact (mem_false _ _ HT Hc).
Qed.

(* the reader takes the string of an entry for the character of that entry *)
Definition decoded (e : N * str) : Prop := forall r,
  unesc (snd e ++ r) None = match unesc r None with Some x => Some (fst e :: x) | None => None end.

(* '&' itself must have an entry: left as it is, it would open a reference *)
Lemma unescape_enc T s : In 38 (map fst T) -> Forall decoded T -> unescape (flat_map (enc T) s) = Some s.
Proof.
  intros H38 HT. unfold unescape. induction s as [|c t IH]; simpl; [reflexivity|].
  destruct (enc_cases T c) as [[-> Hn]|H].
  - simpl. destruct (N.eqb_spec c 38) as [->|_]; [contradiction|]. rewrite IH. reflexivity.
  - eapply Forall_forall in HT; [|exact H]. rewrite (HT _), IH. reflexivity.
Qed.

(* The tables of escape and quoteattr.  What is asked of a table (unused, decoded) is checked entry by entry, by
   evaluation. *)
Definition esc_refs : list (N * str) := [(38, s_amp); (62, s_gt); (60, s_lt)].
Definition qa_refs : list (N * str) := esc_refs ++ [(10, s_nl); (13, s_cr); (9, s_tab)].
Definition qq_refs : list (N * str) := qa_refs ++ [(34, s_quot)].

Lemma escape_flat s : escape s = flat_map (enc esc_refs) s.
Proof.
  unfold escape. change (replace_char 38 s_amp s) with (flat_map (enc [(38, s_amp)]) s).
  rewrite !replace_enc by repeat constructor. reflexivity.
Qed.

Lemma qa_flat s :
  replace_char 9 s_tab (replace_char 13 s_cr (replace_char 10 s_nl (escape s))) = flat_map (enc qa_refs) s.
Proof. rewrite escape_flat, !replace_enc by repeat constructor. reflexivity. Qed.

Lemma qq_flat s : replace_char 34 s_quot (flat_map (enc qa_refs) s) = flat_map (enc qq_refs) s.
Proof. apply replace_enc. repeat constructor. Qed.

Theorem unescape_escape s : unescape (escape s) = Some s.
Proof. rewrite escape_flat. apply unescape_enc; [simpl; tauto|repeat constructor]. Qed.

Theorem escape_no_markup s : ~ In 60 (escape s) /\ ~ In 62 (escape s).
Proof. rewrite escape_flat. split; (apply enc_avoids; [simpl; tauto|repeat constructor]). Qed.

Theorem quoteattr_shape v : exists q body,
  quoteattr v = q :: body ++ [q] /\ (q = 34 \/ q = 39) /\ ~ In q body /\ ~ In 60 body /\
  ~ In 10 body /\ ~ In 13 body /\ ~ In 9 body /\ unescape body = Some v.
Proof.
  unfold quoteattr. rewrite qa_flat. set (d := flat_map (enc qa_refs) v).
  assert (Hd : ~ In 60 d /\ ~ In 10 d /\ ~ In 13 d /\ ~ In 9 d /\ unescape d = Some v).
  { repeat split; try (apply enc_avoids; [simpl; tauto|repeat constructor]).
    apply unescape_enc; [simpl; tauto|repeat constructor]. }
  destruct (mem 34 d) eqn:E34; [destruct (mem 39 d) eqn:E39|].
  - unfold d. rewrite qq_flat. exists 34, (flat_map (enc qq_refs) v). split; [reflexivity|]. split; [tauto|].
    repeat split; try (apply enc_avoids; [simpl; tauto|repeat constructor]).
    apply unescape_enc; [simpl; tauto|repeat constructor].
  - exists 39, d. split; [reflexivity|]. split; [tauto|]. split; [apply mem_false, E39|exact Hd].
  - exists 34, d. split; [reflexivity|]. split; [tauto|]. split; [apply mem_false, E34|exact Hd].
Qed.

Lemma name_char_facts c : name_char c = true ->
  xml_ws c = false /\ N.eqb c 61 = false /\ N.eqb c 62 = false /\ N.eqb c 47 = false.
Proof. unfold name_char. rewrite negb_true_iff, !orb_false_iff. tauto. Qed.

Lemma pa_ws ws r acc : forallb xml_ws ws = true -> pa (ws ++ r) PWs acc = pa r PWs acc.
Proof.
  induction ws as [|c t IH]; intro H; simpl in *; [reflexivity|].
  apply andb_true_iff in H as [-> Ht]. apply IH, Ht.
Qed.

Lemma pa_name_tail r acc t : forall buf, forallb name_char t = true ->
  pa (t ++ 61 :: r) (PName buf) acc = pa r (PEq (rev buf ++ t)) acc.
Proof.
  induction t as [|c t IH]; intros buf H; simpl in *.
  - rewrite app_nil_r. reflexivity.
  - apply andb_true_iff in H as [Hc Ht]. destruct (name_char_facts c Hc) as (_ & -> & _).
    rewrite Hc, IH by exact Ht. simpl. rewrite <- app_assoc. reflexivity.
Qed.

Definition valid_name (n : str) : Prop := n <> [] /\ forallb name_char n = true.

Lemma pa_name n r acc : valid_name n -> pa (n ++ [61] ++ r) PWs acc = pa r (PEq n) acc.
Proof.
  intros [Hne Hall]. destruct n as [|c t]; [contradiction|]. simpl in *.
  apply andb_true_iff in Hall as [Hc Ht]. destruct (name_char_facts c Hc) as (-> & _).
  rewrite Hc. apply pa_name_tail, Ht.
Qed.

Lemma pa_val q n r acc body : forall buf, ~ In q body -> ~ In 60 body ->
  pa (body ++ q :: r) (PVal q buf n) acc =
  match unescape (rev buf ++ body) with
  | Some v => pa r PAfter ((n, v) :: acc)
  | None => None
  end.
Proof.
  induction body as [|c t IH]; intros buf Hq Hlt; simpl in *.
  - rewrite N.eqb_refl, app_nil_r. reflexivity.
  - destruct (N.eqb_spec c q) as [->|_]; [tauto|]. destruct (N.eqb_spec c 60) as [->|_]; [tauto|].
    rewrite IH by tauto. simpl. rewrite <- app_assoc. reflexivity.
Qed.

Lemma pa_quoteattr v n r acc : pa (quoteattr v ++ r) (PEq n) acc = pa r PAfter ((n, v) :: acc).
Proof.
  destruct (quoteattr_shape v) as (q & body & -> & Hq & Hnq & Hlt & _ & _ & _ & Hdec).
  simpl. replace (N.eqb q 34 || N.eqb q 39) with true by (destruct Hq as [-> | ->]; reflexivity).
  rewrite <- app_assoc. simpl. rewrite pa_val by assumption. simpl. rewrite Hdec. reflexivity.
Qed.

Lemma mul_str_ws ichar z : forallb xml_ws ichar = true -> forallb xml_ws (mul_str ichar z) = true.
Proof.
  intro H. unfold mul_str. induction (Z.to_nat z) as [|k IH]; simpl; [reflexivity|].
  rewrite forallb_app, H, IH. reflexivity.
Qed.

Definition names_ok (attrs : list attr) : Prop := Forall (fun a => valid_name (fst a)) attrs.

(* what stands between two attributes: a blank, after a line break and indentation when the tag is wrapped *)
Lemma pa_lead (il : Z) (ichar : str) (first : bool) rest acc : forallb xml_ws ichar = true ->
  pa ((if negb (Z.eqb il 0) && negb first then [10] ++ mul_str ichar il else []) ++ [32] ++ rest)
     (if first then PWs else PAfter) acc = pa rest PWs acc.
Proof.
  intro Hic. destruct first.
  - rewrite andb_false_r. reflexivity.
  - rewrite andb_true_r. destruct (negb (Z.eqb il 0)); [|reflexivity].
    simpl. rewrite pa_ws by (apply mul_str_ws; exact Hic). reflexivity.
Qed.

Lemma collect_loop_parse (il : Z) (ichar : str) : forallb xml_ws ichar = true ->
  forall attrs (first : bool) acc, names_ok attrs ->
  pa (collect_loop attrs il ichar first) (if first then PWs else PAfter) acc = Some (rev acc ++ present attrs).
Proof.
  intros Hic. induction attrs as [|[n [v|]] t IH]; intros first acc Hn; cbn [collect_loop].
  - rewrite app_nil_r. destruct first; reflexivity.
  - apply Forall_cons_iff in Hn as [Hn1 Hnt].
    rewrite pa_lead by exact Hic. rewrite pa_name by exact Hn1. rewrite pa_quoteattr, (IH false) by exact Hnt.
    simpl. rewrite <- app_assoc. reflexivity.
  - apply Forall_cons_iff in Hn as [_ Hnt]. apply IH, Hnt.
Qed.

(* Whatever the tag name, the indentation and the wrap decision, the attribute text parses
   back to exactly the attributes that have a value, with their exact values. *)
Theorem parse_collect tag attrs si ichar indent :
  names_ok attrs -> forallb xml_ws ichar = true ->
  parse_attrs (collect_attributes tag attrs si ichar indent) = Some (present attrs).
Proof.
  intros Hn Hic. unfold parse_attrs, collect_attributes. destruct attrs as [|a t]; [reflexivity|].
  exact (collect_loop_parse _ _ Hic _ true [] Hn).
Qed.
