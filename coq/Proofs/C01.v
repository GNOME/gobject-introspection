From Coq Require Import List Bool String Lia.
From GIV.Lib Require Import Regex Str Facts.
From GIV.Model Require Import C02 C02Spec C01 C01Spec.
Import ListNotations.

Lemma transfer_absent_inert sl a : opt1 a "transfer" = None -> apply_transfer sl a = (sl, []).
Proof. intros H. unfold apply_transfer. rewrite H. reflexivity. Qed.

Example transfer_on_int_invalid :
  let sl := {| sl_is_return := false; sl_name := s "x"; sl_kind := KdFund (s "gint"); sl_raw_ctype := s "gint";
               sl_direction := DIn; sl_dir_unset := false; sl_caller_allocates := false; sl_transfer := Some TNone; sl_nullable := false;
               sl_not_nullable := false; sl_optional := false; sl_skip := false; sl_scope := None; sl_closure := None;
               sl_destroy := None; sl_attrs := [] |} in
  apply_transfer sl [(s "transfer", [(s "full", None)])] = (sl, [WTransfer]).
Proof. vm_compute. reflexivity. Qed.

(* the direction step of [common_types] (Model/C01.v), less its test of [sl_dir_unset] *)
Definition after_direction (sl1 : slot) (a : annots) : slot :=
  match annotated_direction sl1 a with
  | Some (d, ca) =>
      if dir_eqb d sl1.(sl_direction) then sl1
      else with_dir sl1 d ca (if sl1.(sl_is_return) then sl1.(sl_transfer) else Some (param_transfer d ca))
  | None => sl1
  end.

Lemma dir_eqb_eq a b : dir_eqb a b = true <-> a = b.
Proof. now destruct a, b. Qed.

Lemma annotated_direction_inout sl a : has a "inout" = true -> annotated_direction sl a = Some (DInout, false).
Proof. intros H. unfold annotated_direction. rewrite H. reflexivity. Qed.
Lemma annotated_direction_out_option sl a o v rest :
  has a "inout" = false -> ann_get a (s "out") = Some ((o, v) :: rest) ->
  annotated_direction sl a = Some (DOut, str_eqb o (s "caller-allocates")).
Proof. intros H1 H2. unfold annotated_direction. rewrite H1, H2. reflexivity. Qed.
Lemma annotated_direction_out_bare sl a :
  has a "inout" = false -> ann_get a (s "out") = Some [] ->
  annotated_direction sl a =
  Some (DOut, match sl_kind sl with
              | KdNode _ KRecordPlain | KdNode _ KRecordBoxed => negb (contains2 [star; star] (sl_raw_ctype sl))
              | _ => false end).
Proof. intros H1 H2. unfold annotated_direction. rewrite H1, H2. reflexivity. Qed.
Lemma annotated_direction_none sl a :
  has a "inout" = false -> ann_get a (s "out") = None -> has a "in" = false -> annotated_direction sl a = None.
Proof. intros H1 H2 H3. unfold annotated_direction. rewrite H1, H2, H3. reflexivity. Qed.

(* common_flags as a function of what it reads of the annotations, with its tuples taken apart: each flag
   and each warning list is a value of its own *)
Definition flags_of (fx : bool) (sl : slot) (nullable optional allow_none not_any not_nullable not_optional skip : bool)
                    (attrs : list (str * str)) : slot * list warning :=
  let ptr := is_pointer_type sl in
  let outp := negb (sl_is_return sl) && out_dir (sl_direction sl) in
  let outd := dir_eqb (sl_direction sl) DOut && negb (sl_is_return sl) in
  let n0 := sl_nullable sl || is_any_slot sl in
  let n1 := if nullable then if ptr then true else n0 else n0 in
  let nn1 := if nullable then if ptr then false else sl_not_nullable sl else sl_not_nullable sl in
  let w3 := if nullable then if ptr then [] else [WNullable] else [] in
  let o1 := if optional then if outp then true else sl_optional sl else sl_optional sl in
  let w4 := if optional then if outp then [] else [WOptional] else [] in
  let n2 := if allow_none then if outd then n1 else if ptr then true else n1 else n1 in
  let o2 := if allow_none then if outd then true else o1 else o1 in
  let w5 := if allow_none then if outd then [] else if ptr then [] else [WAllowNone] else [] in
  let n3 := n2 || wellknown_nullable sl in
  let n4 := if not_any then if fx then if not_nullable then false else n3 else false else n3 in
  let nn4 := if not_any then if fx then if not_nullable then true else nn1 else true else nn1 in
  let o4 := if not_any then if fx then if not_optional then false else o2 else o2 else o2 in
  (with_null sl n4 nn4 o4 (sl_skip sl || skip) (fold_left (fun l kv => set_attr l (fst kv) (snd kv)) attrs (sl_attrs sl)),
   w3 ++ w4 ++ w5).

Lemma common_flags_eq fx sl a :
  common_flags fx sl a =
  flags_of fx sl (has a "nullable") (has a "optional") (has a "allow-none") (has a "not")
           (has_opt a "not" "nullable") (has_opt a "not" "optional") (has a "skip") (attr_pairs a).
Proof.
  unfold common_flags.
  (* the equation holds whatever is read; with the reads as variables the term is free of string literals, which make every
     rewrite several times dearer *)
  generalize (has a "nullable") (has a "optional") (has a "allow-none") (has a "not")
             (has_opt a "not" "nullable") (has_opt a "not" "optional") (has a "skip") (attr_pairs a).
  intros. rewrite !if_pair, if_same. reflexivity.
Qed.

Lemma flags_of_warned fx sl nullable optional allow_none not_any not_nullable not_optional skip attrs w :
  In w (snd (flags_of fx sl nullable optional allow_none not_any not_nullable not_optional skip attrs)) <->
  nullable = true /\ is_pointer_type sl = false /\ In w [WNullable]
  \/ optional = true /\ negb (sl_is_return sl) && out_dir (sl_direction sl) = false /\ In w [WOptional]
  \/ allow_none = true /\ dir_eqb (sl_direction sl) DOut && negb (sl_is_return sl) = false
     /\ is_pointer_type sl = false /\ In w [WAllowNone].
Proof. cbn [flags_of snd]. rewrite !in_app_iff, !in_if_nil, !in_if_nil_l. reflexivity. Qed.

Definition drop (n : string) (a : annots) : annots := filter (fun kv => negb (str_eqb (fst kv) (s n))) a.

Lemma ann_get_drop n k a : ann_get (drop n a) k = if str_eqb k (s n) then None else ann_get a k.
Proof.
  induction a as [|[k0 o] t IH]; cbn [drop filter fst ann_get]; [now rewrite if_same|]. fold (drop n t).
  destruct (str_eqb_spec k0 (s n)) as [->|]; cbn [negb ann_get]; rewrite IH.
  - rewrite (str_eqb_sym (s n)). now destruct (str_eqb k (s n)).
  - destruct (str_eqb_spec k0 k) as [->|]; [|reflexivity]. now destruct (str_eqb_spec k (s n)).
Qed.

Lemma has_drop_other n m a : str_eqb (s m) (s n) = false -> has (drop n a) m = has a m.
Proof. intros H. unfold has. rewrite ann_get_drop, H. reflexivity. Qed.
Lemma has_opt_drop_other n m k a : str_eqb (s m) (s n) = false -> has_opt (drop n a) m k = has_opt a m k.
Proof. intros H. unfold has_opt. rewrite ann_get_drop, H. reflexivity. Qed.
Lemma attr_pairs_drop_other n a : str_eqb (s "attributes") (s n) = false -> attr_pairs (drop n a) = attr_pairs a.
Proof. intros H. unfold attr_pairs. rewrite ann_get_drop, H. reflexivity. Qed.
Lemma has_drop_same n a : has (drop n a) n = false.
Proof. unfold has. rewrite ann_get_drop, str_eqb_refl. reflexivity. Qed.

Lemma has_opt_has a n k : has_opt a n k = true -> has a n = true.
Proof. unfold has_opt, has. destruct (ann_get a (s n)); [reflexivity|discriminate]. Qed.

Lemma set_attr_in l k v : In (k, v) (set_attr l k v).
Proof.
  induction l as [|[a b] t IH]; cbn; [left; reflexivity|].
  destruct (str_eqb_spec a k) as [->|]; [left; reflexivity | right; exact IH].
Qed.
Lemma set_attr_keeps l k v k' v' : str_eqb k' k = false -> In (k', v') l -> In (k', v') (set_attr l k v).
Proof.
  intros Hk. induction l as [|[a b] t IH]; cbn; [intros []|].
  intros [[= -> ->]|H].
  - rewrite Hk. left; reflexivity.
  - destruct (str_eqb a k); right; [exact H | apply IH; exact H].
Qed.

(* the slot that [on_named n] acts on *)
Fixpoint first_named (n : str) (ps : list slot) : option slot :=
  match ps with [] => None | p :: t => if str_eqb (sl_name p) n then Some p else first_named n t end.

Lemma first_named_on_named n f ps :
  (forall p, sl_name (f p) = sl_name p) ->
  first_named n (on_named n f ps) = option_map f (first_named n ps).
Proof.
  intros Hf. induction ps as [|p t IH]; [reflexivity|].
  cbn [on_named first_named]. destruct (str_eqb (sl_name p) n) eqn:E; cbn [first_named].
  - rewrite Hf, E. reflexivity.
  - rewrite E. exact IH.
Qed.

Lemma nth_error_set_nth {A} (x : A) : forall l i, (i < List.length l)%nat -> nth_error (set_nth i x l) i = Some x.
Proof.
  induction l as [|h t IH]; intros i H; [cbn in H; lia|].
  destruct i; [reflexivity|]. cbn. apply IH. cbn in H. lia.
Qed.
Lemma length_set_nth {A} (x : A) : forall l i, List.length (set_nth i x l) = List.length l.
Proof. induction l as [|h t IH]; intros [|i]; cbn; congruence. Qed.
Lemma length_on_named n f ps : List.length (on_named n f ps) = List.length ps.
Proof. induction ps as [|p t IH]; cbn; [reflexivity|]. destruct (str_eqb (sl_name p) n); cbn; congruence. Qed.

Lemma on_named_nth n f : forall ps i p,
  nth_error ps i = Some p -> exists p', nth_error (on_named n f ps) i = Some p' /\ (p' = p \/ p' = f p).
Proof.
  induction ps as [|q t IH]; intros [|i] p H; try discriminate; cbn [on_named]; destruct (str_eqb (sl_name q) n); cbn in *.
  - injection H as <-. eauto.
  - eauto.
  - eauto.
  - apply IH, H.
Qed.

(* the parameter named by length= gets the direction of the array parameter that names it, whether or
   not that is the array itself *)
Lemma length_param_follows n ps i arr lp :
  let ps' := on_named n (follow_direction (sl_direction arr) (sl_dir_unset arr)) ps in
  nth_error ps i = Some arr -> first_named n ps' = Some lp ->
  exists arr', nth_error ps' i = Some arr' /\ sl_direction lp = sl_direction arr'
               /\ (sl_direction arr' = DOut -> sl_transfer lp = Some TFull).
Proof.
  intros ps' Harr Hlp. unfold ps' in *. rewrite first_named_on_named in Hlp by reflexivity.
  destruct (first_named n ps) as [q|]; [injection Hlp as <-|discriminate].
  destruct (on_named_nth n (follow_direction (sl_direction arr) (sl_dir_unset arr)) ps i arr Harr) as (arr' & H & E).
  exists arr'. split; [exact H|]. destruct E as [-> | ->]; cbn; (split; [reflexivity|]); intros ->; reflexivity.
Qed.

Lemma apply_common_length fx e sl a aopts n :
  ann_get a (s "array") = Some aopts -> opt_val aopts (s "length") = Some (Some n) ->
  snd (apply_common fx e sl a) = Some n.
Proof.
  intros H1 H2. unfold apply_common, common_types, adjust_container. rewrite H1, H2.
  (* the length passes through every [let '(..) := ..] on the way; the pairs they bind are taken apart in the order of the
     model: what (type) gives, (transfer), (element-type), then [common_flags] *)
  destruct (match opt1 a "type" with Some _ => _ | None => _ end) as [sl1 w0].
  destruct (apply_transfer _ a) as [sl3 w1].
  destruct (match ann_get a (s "element-type") with Some _ => _ | None => _ end) as [elem w].
  destruct (common_flags fx _ a). reflexivity.
Qed.

(* [slot_index] (Model/C01Spec.v) runs a local [fix go] from 0. The loop has no name of its own, so it stands here in
   full, in a statement for every start [k], which the induction needs. *)
Lemma slot_index_go_spec n : forall l k i,
  (fix go (l : list slot) (i : nat) := match l with [] => None | p :: t => if str_eqb (sl_name p) n then Some i else go t (S i) end) l k = Some i ->
  exists j p, i = (k + j)%nat /\ nth_error l j = Some p /\ sl_name p = n
              /\ forall j' q, (j' < j)%nat -> nth_error l j' = Some q -> sl_name q <> n.
Proof.
  induction l as [|p t IH]; intros k i H; [discriminate|].
  destruct (str_eqb_spec (sl_name p) n) as [E|E].
  - injection H as <-. exists O, p. repeat split; [lia | exact E | lia].
  - apply IH in H as (j & q & -> & Hq & Hn & Hfirst). exists (S j), q. repeat split; [lia | exact Hq | exact Hn |].
    intros [|j'] r Hj Hr; [injection Hr as <-; exact E | apply (Hfirst j' r); [lia | exact Hr]].
Qed.

Lemma slot_index_spec ps n i :
  slot_index ps n = Some i ->
  (i < List.length ps)%nat
  /\ exists p, nth_error ps i = Some p /\ sl_name p = n
               /\ forall j q, (j < i)%nat -> nth_error ps j = Some q -> sl_name q <> n.
Proof.
  intros H. apply slot_index_go_spec in H as (j & p & -> & Hp & Hn & Hf). cbn [Nat.add].
  split; [apply nth_error_Some; congruence|]. exists p. repeat split; assumption.
Qed.

(* emit without its case split: the fields that describe the type are left as they are (all but the index of the
   length parameter), the others are those of the model.  The right-hand side mentions emit again: rewrite once. *)
Lemma emit_eq ps sl :
  emit ps sl =
  let o := emit ps sl in
  let nul := sl_nullable sl && negb (sl_not_nullable sl) in
  let isret := sl_is_return sl in
  {| b_direction := if isret then None else dir_str (sl_direction sl);
     b_caller_allocates := if isret then None else match sl_direction sl with DIn => None | _ => Some (sl_caller_allocates sl) end;
     b_transfer := match tr_str (sl_transfer sl) with Some t => Some t | None => if sl_skip sl then Some (s "none") else None end;
     b_nullable := nul;
     b_allow_none := if isret then false
                     else (nul && negb (dir_eqb (sl_direction sl) DOut)) || (sl_optional sl && dir_eqb (sl_direction sl) DOut);
     b_optional := if isret then false else sl_optional sl;
     b_scope := if isret then None else sl_scope sl;
     b_closure := if isret then None else match sl_closure sl with Some n => slot_index ps n | None => None end;
     b_destroy := if isret then None else match sl_destroy sl with Some n => slot_index ps n | None => None end;
     b_skip := sl_skip sl; b_attrs := sl_attrs sl;
     b_array := b_array o; b_tname := b_tname o; b_zero := b_zero o; b_fixed := b_fixed o;
     b_length := match sl_kind sl with KdArray _ _ _ _ (Some n) => slot_index ps n | _ => None end;
     b_children := b_children o |}.
Proof. unfold emit. destruct (sl_kind sl) as [| | | |? ? ? ? []|]; reflexivity. Qed.

(* a parameter named by a field of a parameter (not of the return value) and found by the writer *)
Lemma named_index_spec ps (isret : bool) (o : option str) i :
  (if isret then None else match o with Some n => slot_index ps n | None => None end) = Some i ->
  (i < List.length ps)%nat /\ exists p n, o = Some n /\ nth_error ps i = Some p /\ sl_name p = n.
Proof.
  destruct isret, o as [n|]; try discriminate. intros H.
  apply slot_index_spec in H as (Hl & p & Hp & Hn & _). split; [exact Hl|]. exists p, n. auto.
Qed.

(* what the witnesses of the recorded findings (Props/C01.v) are built from: the out parameter `gint *v`, and an
   environment with a callback type and GDestroyNotify, for the heuristics of pass 3 to override explicit annotations *)
Definition out_ptr_slot : slot :=
  {| sl_is_return := false; sl_name := s "v"; sl_kind := KdFund (s "gint"); sl_raw_ctype := s "gint*";
     sl_direction := DOut; sl_dir_unset := false; sl_caller_allocates := false; sl_transfer := Some TFull; sl_nullable := false;
     sl_not_nullable := false; sl_optional := false; sl_skip := false; sl_scope := None; sl_closure := None;
     sl_destroy := None; sl_attrs := [] |}.
Definition env_cb : env :=
  [(s "FooCb", (s "Foo.Cb", KCallback)); (s "GDestroyNotify", (s "GLib.DestroyNotify", KDestroyNotify))].
Definition decl_of (n : string) (t : ctree) (a : option annots) : decl := {| d_name := s n; d_tree := t; d_ann := a |}.
