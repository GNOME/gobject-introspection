From Coq Require Import List NArith Bool.
From GIV.Model Require Import C07T C15T.
From GIV.Proofs Require Import C07T.
Import ListNotations.

(* atoi reads the leading digits and stops at what follows them *)
Lemma catoi_digits s r : forall acc, forallb is_digit s = true ->
  match r with [] => True | c :: _ => is_digit c = false end ->
  catoi_from acc (s ++ r) = fold_left dstep s acc.
Proof.
  induction s as [|c s IH]; intros acc H Hr; cbn [app fold_left].
  - destruct r; [reflexivity|]. cbn [catoi_from]. rewrite Hr. reflexivity.
  - cbn [forallb] in H. apply andb_true_iff in H as [Hc Hs]. cbn [catoi_from]. rewrite Hc. apply IH; assumption.
Qed.

Lemma catoi_dec n r : match r with [] => True | c :: _ => is_digit c = false end -> catoi (dec n ++ r) = n.
Proof.
  intro Hr. destruct (dec_spec n) as (_ & Hd & Hv). unfold catoi. rewrite catoi_digits by assumption. exact Hv.
Qed.

Lemma catoi_opt (o : option N) : option_map catoi (option_map dec o) = o.
Proof.
  destruct o as [n|]; [|reflexivity]. cbn [option_map]. rewrite <- (app_nil_r (dec n)), catoi_dec; [reflexivity|exact I].
Qed.
