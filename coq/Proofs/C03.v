From Coq Require Import List NArith String.
From GIV.Lib Require Import Regex Str Facts.
From GIV.Model Require Import C02 C03.

Definition member_kind (k : ekind) : bool := match k with EProperty | ESignal | EField | EVFunc => true | _ => false end.

(* Class:prop, Class::sig, Struct.field: the parts are recovered from the key when the owner's C
   name does not contain the first character of the separator *)
Lemma sep_key_inj (c : N) r owner name owner' name' :
  ~ In c owner -> ~ In c owner' -> owner ++ (c :: r) ++ name = owner' ++ (c :: r) ++ name' ->
  owner = owner' /\ name = name'.
Proof. intros A B E. apply app_sep_inj in E as [-> E]; [|assumption..]. apply app_inv_head in E. auto. Qed.

Definition get (fs : list fn) (a : str) : option fn := find (fun f => str_eqb (f_name f) a) fs.

Lemma get_name fs a f : get fs a = Some f -> f_name f = a.
Proof. intros [_ H]%find_some. apply str_eqb_eq, H. Qed.

Lemma get_of_in fs f : NoDup (map f_name fs) -> In f fs -> get fs (f_name f) = Some f.
Proof.
  intros N H. unfold get. destruct (find _ fs) as [f'|] eqn:E.
  - apply find_some in E as [H' E%str_eqb_eq]. f_equal. exact (NoDup_map_inj f_name fs _ _ N H' H E).
  - apply (find_none _ _ E) in H. rewrite str_eqb_refl in H. discriminate.
Qed.

Lemma get_map h fs a : (forall f, f_name (h f) = f_name f) -> get (map h fs) a = option_map h (get fs a).
Proof.
  intros Hh. unfold get. induction fs as [|f t IH]; cbn; [reflexivity|].
  rewrite Hh. destruct (str_eqb (f_name f) a); [reflexivity | exact IH].
Qed.

Section Upd.
  Context (n : str) (g : fn -> fn) (Hg : forall f, f_name (g f) = f_name f).

  Lemma upd_keeps_name f : f_name (if str_eqb (f_name f) n then g f else f) = f_name f.
  Proof. destruct (str_eqb (f_name f) n); [apply Hg | reflexivity]. Qed.

  Lemma upd_names fs : map f_name (upd_fn n g fs) = map f_name fs.
  Proof. unfold upd_fn. rewrite map_map. apply map_ext, upd_keeps_name. Qed.

  Lemma get_upd fs a : get (upd_fn n g fs) a = if str_eqb a n then option_map g (get fs a) else get fs a.
  Proof.
    unfold upd_fn. rewrite get_map by exact upd_keeps_name.
    destruct (get fs a) as [f|] eqn:G; cbn; [rewrite (get_name _ _ _ G)|]; destruct (str_eqb a n); reflexivity.
  Qed.
  Lemma get_upd_same fs : get (upd_fn n g fs) n = option_map g (get fs n).
  Proof. rewrite get_upd, str_eqb_refl. reflexivity. Qed.
  Lemma get_upd_other fs a : a <> n -> get (upd_fn n g fs) a = get fs a.
  Proof. intros H. rewrite get_upd, str_eqb_neq by exact H. reflexivity. Qed.
End Upd.

(* shadows and shadowed-by answer each other, and no function has both. The last is what the check as found did not keep:
   it accepted a renaming function that was itself already part of a pair. *)
Definition paired (fs : list fn) : Prop :=
  forall a f, get fs a = Some f ->
    (forall g, f_shadows f = Some g -> exists p, get fs g = Some p /\ f_shadowed_by p = Some a)
    /\ (forall g, f_shadowed_by f = Some g -> exists p, get fs g = Some p /\ f_shadows p = Some a)
    /\ (f_shadows f = None \/ f_shadowed_by f = None).

(* an accepted request links two different functions, neither of them part of a pair yet *)
Lemma link_paired fs tg nd :
  paired fs -> get fs (f_name tg) = Some tg -> get fs (f_name nd) = Some nd -> f_name nd <> f_name tg ->
  f_shadows tg = None -> f_shadowed_by tg = None -> f_shadows nd = None -> f_shadowed_by nd = None ->
  paired (upd_fn (f_name nd) (set_shadows (f_name tg)) (upd_fn (f_name tg) (set_shadowed_by (f_name nd)) fs)).
Proof.
  intros P Gt Gn NT T2 T1 N2 N1. set (fs' := upd_fn _ _ _).
  assert (Gn' : get fs' (f_name nd) = Some (set_shadows (f_name tg) nd)).
  { unfold fs'. rewrite get_upd_same, get_upd_other, Gn by auto. reflexivity. }
  assert (Gt' : get fs' (f_name tg) = Some (set_shadowed_by (f_name nd) tg)).
  { unfold fs'. rewrite get_upd_other, get_upd_same, Gt by auto. reflexivity. }
  assert (Go : forall a, a <> f_name nd -> a <> f_name tg -> get fs' a = get fs a).
  { intros a An At. unfold fs'. rewrite !get_upd_other by auto. reflexivity. }
  (* a partner found in fs carries an attribute ([sel] is [f_shadows] or [f_shadowed_by]), so it is neither of the two *)
  assert (other : forall (sel : fn -> option str) a g, sel tg = None -> sel nd = None ->
            (exists p, get fs g = Some p /\ sel p = Some a) -> exists p, get fs' g = Some p /\ sel p = Some a).
  { intros sel a g St Sn (p & Gp & Hp). exists p. split; [|exact Hp]. rewrite Go, Gp; [reflexivity | |]; intros ->; congruence. }
  intros a f Hf. destruct (str_eqb_spec a (f_name nd)) as [->|An]; [|destruct (str_eqb_spec a (f_name tg)) as [->|At]].
  - rewrite Gn' in Hf. injection Hf as <-. cbn. split; [|split].
    + intros g [= <-]. eexists. split; [exact Gt' | reflexivity].
    + congruence.
    + right. exact N1.
  - rewrite Gt' in Hf. injection Hf as <-. cbn. split; [|split].
    + congruence.
    + intros g [= <-]. eexists. split; [exact Gn' | reflexivity].
    + left. exact T2.
  - rewrite Go in Hf by assumption. destruct (P a f Hf) as (PA & PB & PC). split; [|split; [|exact PC]].
    + intros g Hg. exact (other f_shadowed_by a g T1 N1 (PA g Hg)).
    + intros g Hg. exact (other f_shadows a g T2 N2 (PB g Hg)).
Qed.

Lemma find_symbol_in fs sym t : find_symbol fs sym = Some t -> In t fs.
Proof.
  induction fs as [|f r IH]; [discriminate|]. cbn. destruct (str_eqb (f_symbol f) sym).
  - intros [= ->]. left. reflexivity.
  - intros H. right. apply IH. exact H.
Qed.

(* what every request keeps: names stay distinct, pairs stay mutual *)
Definition well_paired (fs : list fn) : Prop := NoDup (map f_name fs) /\ paired fs.

Lemma rename_step_paired fs req : well_paired fs -> well_paired (rename_step true fs req).
Proof.
  intros Same. pose proof Same as [N P]. destruct req as [nn ts]. unfold rename_step.
  destruct (find_symbol fs ts) as [tg|] eqn:ET; [|exact Same].
  destruct (find (fun f => str_eqb (f_name f) nn) fs) as [nd|] eqn:EN; [|exact Same].
  destruct (f_shadowed_by tg) eqn:T1; [exact Same|]. destruct (f_shadows tg) eqn:T2; [exact Same|]. cbn [andb].
  destruct (f_shadowed_by nd) eqn:N1; [exact Same|]. destruct (f_shadows nd) eqn:N2; [exact Same|]. cbn [orb].
  destruct (str_eqb_spec (f_name nd) (f_name tg)) as [|NT]; [exact Same|].
  split; [rewrite !upd_names by reflexivity; exact N|].
  apply link_paired; try assumption.
  - apply get_of_in; [exact N | exact (find_symbol_in _ _ _ ET)].
  - rewrite (get_name _ _ _ EN). exact EN.
Qed.

Lemma rename_all_paired reqs : forall fs, well_paired fs -> well_paired (rename_all true fs reqs).
Proof. induction reqs as [|r t IH]; intros fs H; [exact H|]. apply IH, rename_step_paired, H. Qed.

Lemma fresh_paired fs : Forall (fun f => f_shadows f = None /\ f_shadowed_by f = None) fs -> paired fs.
Proof.
  intros H a f G. apply find_some in G as [Hin _]. rewrite Forall_forall in H. destruct (H f Hin) as [A B].
  split; [|split; [|left; exact A]]; congruence.
Qed.

Lemma shown_pairs fs a f :
  paired fs -> get fs a = Some f ->
  (forall g, fst (shown f) = Some g -> exists p, get fs g = Some p /\ snd (shown p) = Some a)
  /\ (forall g, snd (shown f) = Some g -> exists p, get fs g = Some p /\ fst (shown p) = Some a).
Proof.
  intros P G. destruct (P a f G) as (PA & PB & _). unfold shown. split; intros g Hg.
  - destruct (f_shadowed_by f); [discriminate|].
    destruct (PA g Hg) as (p & Gp & Hp). exists p. split; [exact Gp|]. rewrite Hp. reflexivity.
  - destruct (f_shadowed_by f) as [g'|] eqn:E; [|discriminate]. injection Hg as ->.
    destruct (PB g eq_refl) as (p & Gp & Hp). exists p. split; [exact Gp|].
    destruct (P g p Gp) as (_ & _ & [X|X]); [congruence|]. rewrite X. exact Hp.
Qed.

(* the functions of the witness against the check as found (Props/C03.v) *)
Definition fresh (n : string) : fn := {| f_name := s n; f_symbol := s "foo_" ++ s n; f_shadows := None; f_shadowed_by := None |}.
