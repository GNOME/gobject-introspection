From Coq Require Import List NArith Bool Lia.
From GIV.Lib Require Import Regex Str Backtrack BtBounds BtRuns Facts.
From GIV.Gen Require Import BlockRegex.
From GIV.Model Require Import C10 C10B C10BSpec.
From GIV.Proofs Require Import C10Str C10L C11B.
Import ListNotations.

(* C11 over the block-level model: the parser never dereferences a failed match.  First a verified sufficient condition for
   "this pattern matches every subject without a line feed" (decided by vm_compute on the patterns regenerated from the source):
   ^ skippable* (.* | (.*?)) tail   where everything in front of the .* can match the empty string and everything
   behind it can match the empty string at the end of the subject (in the terms of Lib/BtRuns.v: the front reaches x from x,
   the star reaches the end from x, the tail reaches the end from the end); then the propagation of "no line feed" from the lines of
   the comment (Proofs/C10L.v: split_breaks_aux_no_lf) to every text the three unguarded patterns are applied to. *)

Fixpoint skippable (r : bre) : bool :=
  match r with
  | BEps => true
  | BStar _ _ => true
  | BOpt _ _ => true
  | BGroup _ a => skippable a
  | BCat a b => skippable a && skippable b
  | _ => false
  end.

Lemma skip_ok r x : skippable r = true -> reaches r x x.
Proof. induction r; cbn [skippable]; intro Hs; try discriminate; try apply andb_true_iff in Hs as [Ha Hb]; eauto with reaches. Qed.

(* what can match the empty string at the very end *)
Fixpoint nullable_end (r : bre) : bool :=
  match r with
  | BEps | BEol => true
  | BStar _ _ | BOpt _ _ => true
  | BGroup _ a => nullable_end a
  | BCat a b => nullable_end a && nullable_end b
  | _ => false
  end.

Lemma null_end_ok r : nullable_end r = true -> reaches r [] [].
Proof. induction r; cbn [nullable_end]; intro Hs; try discriminate; try apply andb_true_iff in Hs as [Ha Hb]; eauto with reaches. Qed.

(* the star that takes the rest of the subject, possibly inside groups: .* or .*? where the translator renders "." (no DOTALL)
   as the class CNot (CChar 10) *)
Fixpoint absorbing (r : bre) : bool :=
  match r with
  | BStar _ (BCls (CNot (CChar c))) => N.eqb c 10
  | BGroup _ a => absorbing a
  | _ => false
  end.

Lemma reaches_dot_star g x : no_lf x -> reaches (BStar g (BCls (CNot (CChar 10)))) x [].
Proof.
  intros Hx k pos cs Hk. rewrite bm_star_unfold. apply star_absorb; [exact Hk| |lia].
  eapply Forall_impl; [|exact Hx]. intros ch H. cbn [cls_mem]. apply negb_true_iff, N.eqb_neq, H.
Qed.

Lemma absorb_ok r x : absorbing r = true -> no_lf x -> reaches r x [].
Proof.
  intros Hs Hx. induction r as [| | | |g a _| |id a IHa| | |]; cbn [absorbing] in Hs; try discriminate.
  - (* BStar g a: absorbing is false unless a is BCls (CNot (CChar c)), the one constructor named at each level *)
    destruct a as [|k| | | | | | | |]; try discriminate.
    destruct k as [| | |k|]; try discriminate. destruct k as [|c| | |]; try discriminate.
    apply N.eqb_eq in Hs as ->. apply reaches_dot_star, Hx.
  - (* BGroup id a *) exact (reaches_group _ _ _ _ (IHa Hs)).
Qed.

(* the shape behind ^ :  skippable ... ; absorbing star ; nullable-at-end tail *)
Fixpoint total_tail (r : bre) : bool :=
  match r with
  | BCat a b => (skippable a && total_tail b) || (absorbing a && nullable_end b)
  | _ => false
  end.

Lemma total_tail_ok r x : total_tail r = true -> no_lf x -> reaches r x [].
Proof.
  intros Hs Hx. induction r as [| |a _ b IHb| | | | | | |]; cbn [total_tail] in Hs; try discriminate.
  apply orb_true_iff in Hs as [Hs|Hs]; apply andb_true_iff in Hs as [H1 H2].
  - exact (reaches_cat _ _ _ _ _ (skip_ok _ _ H1) (IHb H2)).
  - exact (reaches_cat _ _ _ _ _ (absorb_ok _ _ H1 Hx) (null_end_ok _ H2)).
Qed.

Definition total_on_lines (r : bre) : bool :=
  match r with BCat BBol r' => total_tail r' | _ => false end.

Theorem total_on_lines_ok r x : total_on_lines r = true -> no_lf x -> bmatch r x <> None.
Proof.
  intros Hs Hx. destruct r as [| |[] b| | | | | | |]; try discriminate.
  apply (total_tail_ok _ _ Hs Hx). intros p c. discriminate.
Qed.

(* the three patterns whose match the parser dereferences without a test *)
Lemma unguarded_patterns_total x : no_lf x -> bmatch re_indent x <> None /\ bmatch re_tagver x <> None /\ bmatch re_tagstab x <> None.
Proof. intro H. repeat split; apply total_on_lines_ok; try exact H; vm_compute; reflexivity. Qed.

(* every branch of these four functions ends in a state that copies the flag: go through the branches *)
Ltac brk := repeat match goal with
  | |- context [match ?x with _ => _ end] => destruct x
  | |- context [if ?x then _ else _] => destruct x
  end; try reflexivity.

Lemma step_ident_exc cx cb ca bl st : l_exc (step_ident cx cb ca bl st) = l_exc st.
Proof. unfold step_ident. brk. Qed.
Lemma step_param_exc cx cs b st : l_exc (step_param cx cs b st) = l_exc st.
Proof. unfold step_param. brk. Qed.
Lemma step_deprecated_tag_exc cx cs b st : l_exc (step_deprecated_tag cx cs b st) = l_exc st.
Proof. unfold step_deprecated_tag. brk. Qed.
Lemma step_cont_exc cx b st : l_exc (step_cont cx b st) = l_exc st.
Proof. unfold step_cont. brk. Qed.

(* no line feed survives into the strings the unguarded patterns are applied to *)
Lemma parse_fields_desc_segment popt vd ln q column fields existing r d :
  parse_fields_d popt vd ln q column fields existing = (r, d) -> segment d fields.
Proof.
  unfold parse_fields_d. intro E.
  assert (Hd : segment (strip (skipn (po_end (parse_annotations_d popt ln q column fields existing)) fields)) fields).
  { eapply segment_trans; [apply segment_strip|apply segment_skipn]. }
  destruct (po_success _); [destruct (strip _) as [|c t]; [|destruct (vd && _)%bool; [destruct (N.eqb c colon)|]]|];
    injection E as <- <-; try exact Hd.
  - eapply segment_trans; [apply segment_tl|exact Hd].
  - exists [], fields. reflexivity.
Qed.

Lemma plain_tag_part_exc ln q fcol tlow tfields : no_lf tfields -> snd (plain_tag_part ln q fcol tlow tfields) = false.
Proof.
  unfold plain_tag_part. intros H. destruct tfields as [|fc ft]; [reflexivity|].
  destruct (parse_fields_d _ _ _ _ _ _ _) as [r d] eqn:Ep. apply parse_fields_desc_segment in Ep.
  destruct (unguarded_patterns_total d (segment_Forall _ _ _ Ep H)) as (_ & Hver & Hstab).
  destruct (po_success r); [|reflexivity].
  destruct (_ || _)%bool; [destruct (bmatch re_tagver d)|destruct (str_eqb tlow tag_stability); [destruct (bmatch re_tagstab d)|]]; cbn [snd]; congruence.
Qed.

Lemma step_tag_exc cx cs b st : no_lf (cx_line cx) -> l_exc (step_tag cx cs b st) = l_exc st.
Proof.
  intro H. unfold step_tag.
  destruct (existsb (str_eqb _) deprecated_ann_tags); [rewrite step_deprecated_tag_exc; reflexivity|].
  destruct (str_eqb _ tag_description); [reflexivity|].
  destruct (existsb (str_eqb _) return_tag_names); rewrite !let_pair; [reflexivity|].
  cbn [l_exc]. rewrite plain_tag_part_exc; [apply orb_false_r|]. exact (segment_Forall _ _ _ (segment_gtext _ _ _) H).
Qed.

Lemma step_exc cb ca bl ln line0 st : no_lf line0 -> l_exc (step cb ca bl ln line0 st) = l_exc st.
Proof.
  intro H. unfold step.
  destruct (unguarded_patterns_total line0 H) as (Hi & _). destruct (bmatch re_indent line0) as [ci|]; [clear Hi|contradiction].
  rewrite orb_false_r.
  destruct (match bmatch re_asterisk line0 with Some cs => _ | None => _ end) as [co d6].
  assert (Hl : no_lf (skipn co line0)) by exact (segment_Forall _ _ _ (segment_skipn _ _) H).
  cbn [l_blk]. destruct (l_blk st) as [b|]; [|rewrite step_ident_exc; reflexivity].
  destruct (bmatch re_parameter _); [rewrite step_param_exc; reflexivity|].
  destruct (_ && _)%bool; [reflexivity|].
  destruct (bmatch re_tag _); [destruct (Nat.leb _ _); [rewrite step_tag_exc by exact Hl; reflexivity|]|]; rewrite step_cont_exc; reflexivity.
Qed.

Lemma run_lines_exc cb ca bl : forall lines ln st, Forall no_lf lines -> l_exc (run_lines cb ca bl ln lines st) = l_exc st.
Proof.
  induction lines as [|l t IH]; intros ln st H; [reflexivity|]. cbn [run_lines].
  apply Forall_cons_iff in H as [H1 H2]. rewrite IH by exact H2. apply step_exc, H1.
Qed.
