From Coq Require Import List Arith NArith Bool Lia.
From GIV.Lib Require Import Regex Str Backtrack BtBounds Facts.
From GIV.Gen Require Import AnnNames UnicodeRe BlockRegex.
From GIV.Model Require Import C10 C10B C11B.
From GIV.Proofs Require Import C10Str.
Import ListNotations.

(* C11 over the block-level model (Model/C10B.v): every diagnostic of the parse phase names a line of the comment, quotes that
   source line and keeps the caret within it.  The bounds come from Lib/BtBounds (captures of the backtracking matcher lie within
   the subject) and from an invariant of the annotation character loop. *)

Lemma segment_rstrip x : segment (rstrip x) x.
Proof. pose proof (segment_rev _ _ (segment_lstrip (rev x))) as H. rewrite rev_involutive in H. exact H. Qed.
Lemma segment_gtext id x cs : segment (gtext id x cs) x.
Proof. eapply segment_trans; [apply segment_firstn|apply segment_skipn]. Qed.

Lemma gspan_bounds r x cs id : bmatch r x = Some cs -> gstart id cs <= gend id cs /\ gend id cs <= length x.
Proof.
  intro H. apply bmatch_caps_in_bounds in H. unfold gstart, gend, gspan.
  destruct (Backtrack.lookup id cs) as [se|] eqn:E; simpl; [exact (lookup_caps_ok _ _ _ _ H E)|lia].
Qed.

Lemma gtext_bound r x cs id : bmatch r x = Some cs -> gstart id cs + length (gtext id x cs) <= length x.
Proof. intro H. destruct (gspan_bounds r x cs id H). unfold gtext, slice. rewrite firstn_length, skipn_length. lia. Qed.

(* what a well-placed diagnostic is: it names line ln and, when the bounds [b] of the call hold and it quotes, it quotes q
   with the caret inside *)
Definition dok (b : Prop) (ln : nat) (q : str) (d : diag) : Prop :=
  dg_line d = ln /\
  (b -> (dg_quoted d = None /\ dg_col d = None) \/ (dg_quoted d = Some q /\ exists c, dg_col d = Some c /\ c <= length q)).

Lemma dok_one (b : Prop) e code ln col q : (b -> col <= length q) -> Forall (dok b ln q) [mkd e code ln col q].
Proof. intro H. constructor; [|constructor]. split; [reflexivity|]. intro Hb. right. split; [reflexivity|]. exists col. auto. Qed.
Lemma dok_one0 b e code ln q : Forall (dok b ln q) [mkd0 e code ln].
Proof. constructor; [|constructor]. split; [reflexivity|]. intro. left. split; reflexivity. Qed.
Lemma dok_true (b : Prop) ln q d : dok True ln q d -> dok b ln q d.
Proof. intros [H1 H2]. split; [exact H1|]. intros _. apply H2. exact I. Qed.

(* the diagnostics of a line that carries a deprecated tag quote another text: only their line number is claimed *)
Definition on_line (ln : nat) (d : diag) : Prop := dg_line d = ln.
Lemma dok_line b ln q ds : Forall (dok b ln q) ds -> Forall (on_line ln) ds.
Proof. apply Forall_impl. intros d H. apply H. Qed.

Lemma find_index_lt c x : forall i r, find_index c x i = Some r -> i <= r < i + length x.
Proof.
  induction x as [|d t IH]; simpl; intros i r H; [discriminate|].
  destruct (N.eqb d c); [injection H as <-; lia|]. apply IH in H. lia.
Qed.

(* str.lower keeps the length of anything that comes out pure ASCII *)
Definition is_ascii (c : N) : bool := N.ltb c 128.
Lemma lower_table_fact :
  forallb (fun e => Nat.eqb (length (snd e)) 1 || negb (forallb is_ascii (snd e))) py_lower_table = true.
Proof. vm_compute. reflexivity. Qed.
Lemma assoc_n_in {A} c (t : list (N * A)) v : assoc_n c t = Some v -> In (c, v) t.
Proof.
  induction t as [|[k w] r IH]; simpl; [discriminate|].
  destruct (N.eqb_spec k c) as [->|_]; intro H; [injection H as <-; left; reflexivity|right; auto].
Qed.
Lemma lower_char_ascii c : forallb is_ascii (py_lower_char c) = true -> length (py_lower_char c) = 1.
Proof.
  unfold py_lower_char. destruct (N.ltb c 128); [reflexivity|].
  destruct (assoc_n c py_lower_table) as [l|] eqn:E; [|reflexivity].
  intro H. apply assoc_n_in in E. pose proof lower_table_fact as F. rewrite forallb_forall in F. apply F in E. simpl in E.
  rewrite H, orb_false_r in E. apply Nat.eqb_eq in E. exact E.
Qed.
Lemma lower_ascii_length x : forallb is_ascii (py_lower x) = true -> length (py_lower x) = length x.
Proof.
  induction x as [|c t IH]; [reflexivity|]. unfold py_lower in *. cbn [flat_map]. rewrite forallb_app, app_length.
  intro H. apply andb_true_iff in H as [H1 H2]. rewrite (lower_char_ascii c H1), (IH H2). reflexivity.
Qed.
Lemma in_list_ascii name : existsb (str_eqb name) list_annotations = true -> forallb is_ascii name = true.
Proof. rewrite existsb_str_eqb. revert name. apply forallb_forall. vm_compute. reflexivity. Qed.

Lemma split1_len c : forall x cur a o, split1 c x cur = (a, o) ->
  match o with Some r => length cur + length x = length a + 1 + length r | None => length a = length cur + length x end.
Proof.
  induction x as [|d t IH]; simpl; intros cur a o H.
  - injection H as <- <-. rewrite rev_length. lia.
  - destruct (N.eqb d c).
    + injection H as <- <-. rewrite rev_length. lia.
    + apply IH in H. destruct o; simpl in *; lia.
Qed.

Lemma ann_vocabulary_facts : length ann_inout_alt = 6 /\ length ann_inout = 5 /\ forallb is_ascii ann_inout_alt = true
  /\ existsb (str_eqb ann_attributes) list_annotations = false.
Proof. vm_compute. auto. Qed.

(* The annotation machinery is called with a line number ln, the text q it quotes and a column.  Whatever it reports
   carries ln and has its caret at or before a position m, which lies within q when the bounds b of the call hold. *)
Section Bounded.
  Context (b : Prop) (ln : nat) (q : str) (m : nat) (Hm : b -> m <= length q).

  Lemma dok_upto e code col : col <= m -> Forall (dok b ln q) [mkd e code ln col q].
  Proof. intro H. apply dok_one. intro B. specialize (Hm B). lia. Qed.

  Lemma opts_list_ok column o l dl : opts_list_d ln q column o = (l, dl) ->
    (forall x, o = Some x -> column + length x <= S m) -> Forall (dok b ln q) dl.
  Proof.
    unfold opts_list_d. intros E H. destruct o as [[|c t]|]; try (injection E as <- <-; constructor).
    destruct (find_index 61 (c :: t) 0) as [r|] eqn:Ei; injection E as <- <-; [|constructor].
    apply dok_upto. apply find_index_lt in Ei. specialize (H _ eq_refl). lia.
  Qed.

  Lemma finish_ok column name rest ds r ds' : finish_annotation ln q column name rest ds = (r, ds') ->
    Forall (dok b ln q) ds ->
    (existsb (str_eqb name) list_annotations = true -> forall x, rest = Some x -> column + length name + 1 + length x <= m) ->
    Forall (dok b ln q) ds'.
  Proof.
    unfold finish_annotation. intros E Hds H. destruct (existsb (str_eqb name) list_annotations).
    - destruct (opts_list_d _ _ _ _) as [l dl] eqn:Eo. injection E as <- <-. apply Forall_app. split; [exact Hds|].
      apply opts_list_ok in Eo; [exact Eo|]. intros x Hx. specialize (H eq_refl x Hx). lia.
    - destruct (existsb (str_eqb name) dict_annotations); injection E as <- <-; exact Hds.
  Qed.

  Lemma parse_annotation_ok column annotation r ds : parse_annotation_d ln q column annotation = (r, ds) ->
    column + length annotation <= m -> Forall (dok b ln q) ds.
  Proof.
    unfold parse_annotation_d. intros E H.
    destruct ann_vocabulary_facts as (L6 & L5 & La & Hn).
    assert (Hcol : forall e code, Forall (dok b ln q) [mkd e code ln column q]) by (intros; apply dok_upto; lia).
    destruct (split1 sp _ []) as [n0 rest] eqn:Es. apply split1_len in Es. unfold replace_char in Es. rewrite !map_length in Es. cbn [length] in Es.
    destruct (str_eqb_spec (py_lower n0) ann_inout_alt) as [E1|_].
    - apply finish_ok in E; [exact E|apply Hcol|]. intros _ x ->.
      assert (length n0 = 6) by (rewrite <- (lower_ascii_length n0); rewrite E1; assumption). lia.
    - destruct (str_eqb (py_lower n0) ann_attribute).
      + destruct (opts_list_d ln q column rest) as [l dl] eqn:Eo. apply opts_list_ok in Eo; [|intros x ->; lia].
        assert (Hds : Forall (dok b ln q) (mkd false 23 ln column q :: dl)) by (apply (Forall_app _ [_]); split; [apply Hcol|exact Eo]).
        (* "attributes" is no list annotation: nothing more is reported about its options *)
        destruct l as [|a [|a2 [|a3 l']]].
        1, 4: injection E as <- <-; rewrite app_comm_cons; apply Forall_app; split; [exact Hds|apply Hcol].
        all: apply finish_ok in E; [exact E|exact Hds|rewrite Hn; discriminate].
      + apply finish_ok in E; [exact E|constructor|]. intros Hin x ->.
        rewrite (lower_ascii_length n0 (in_list_ascii _ Hin)). lia.
  Qed.

  (* the character loop of _parse_annotations: behind position i the loop has closed its last annotation at pa_end, and
     an open one started at pa_start and has collected pa_buf since *)
  Definition pinv (i : nat) (st : pas) : Prop :=
    pa_end st <= i /\ match pa_level st with 0 => length (pa_buf st) = 0 | S _ => pa_start st + 1 + length (pa_buf st) <= i end.

  Definition pa_res_ok (bound : nat) (r : pa_res) : Prop :=
    match r with
    | PAok st => Forall (dok b ln q) (pa_diags st) /\ pa_end st <= bound
    | PAfail ds => Forall (dok b ln q) ds
    end.

  Lemma pa_loop_ok popt column n : column + n <= m -> forall x i, i + length x <= n -> forall st,
    pinv i st -> Forall (dok b ln q) (pa_diags st) -> pa_res_ok n (pa_loop popt ln q column x i st).
  Proof.
    intro Hn. induction x as [|c t IH]; intros i Hi [lvl prev buf start en anns raws ch ds] [He Hbuf] Hd; cbn in Hi, He, Hbuf, Hd.
    - cbn. split; [exact Hd|lia].
    - rewrite Nat.add_succ_r in Hi. specialize (IH (S i) Hi).
      assert (Hfail : forall code, Forall (dok b ln q) (ds ++ [mkd true code ln (column + i) q])).
      { intro code. apply Forall_app. split; [exact Hd|apply dok_upto; lia]. }
      cbn [pa_loop pa_level pa_prev pa_buf pa_start pa_end pa_anns pa_raws pa_changed pa_diags].
      destruct (N.eqb c lpar).
      { destruct (match prev with Some p => N.eqb p lpar | None => false end); [apply Hfail|].
        apply IH; [|exact Hd]. destruct lvl; split; cbn in *; lia. }
      destruct (N.eqb c rpar).
      { destruct (match prev with Some p => N.eqb p lpar | None => false end); [apply Hfail|].
        destruct lvl as [|[|l]].
        - apply Hfail.
        - (* closing at level 1: the annotation lies between pa_start and i *)
          destruct popt; [|apply IH; [split; cbn; lia|exact Hd]].
          destruct (parse_annotation_d _ _ _ _) as [r dsa] eqn:Ep. apply parse_annotation_ok in Ep.
          2:{ pose proof (segment_length _ _ (segment_strip (rev buf))) as Hs. rewrite rev_length in Hs. lia. }
          destruct r as [[name v]|]; (apply IH; [split; cbn; lia|]); cbn; rewrite !Forall_app; repeat split; try assumption.
          destruct (has_key anns name); [apply dok_upto; lia|constructor].
        - apply IH; [split; cbn in *; lia|exact Hd]. }
      destruct (is_space c); [apply IH; [destruct lvl; split; cbn in *; lia|exact Hd]|].
      destruct lvl; [cbn; split; [exact Hd|lia]|].
      apply IH; [split; cbn in *; lia|exact Hd].
  Qed.

  Lemma parse_annotations_ok popt column fields existing : column + length fields <= m ->
    let r := parse_annotations_d popt ln q column fields existing in
    Forall (dok b ln q) (po_diags r) /\ po_end r <= length fields.
  Proof.
    intros Hb. unfold parse_annotations_d.
    set (st0 := Build_pas _ _ _ _ _ _ _ _ _). pose proof (pa_loop_ok popt column _ Hb fields 0 (le_n _) st0) as H.
    destruct (pa_loop _ _ _ _ _ _ _) as [st|ds].
    - destruct H as [H1 H2]; [split; cbn; lia|constructor|].
      destruct (pa_level st); cbn; (split; [|lia]); [exact H1|].
      apply Forall_app. split; [exact H1|]. apply dok_upto. lia.
    - cbn. split; [|lia]. apply H; [split; cbn; lia|constructor].
  Qed.

  Lemma parse_fields_ok popt vd column fields existing r d :
    parse_fields_d popt vd ln q column fields existing = (r, d) -> column + length fields <= m -> Forall (dok b ln q) (po_diags r).
  Proof.
    unfold parse_fields_d. intros E Hb. destruct (parse_annotations_ok popt column fields existing Hb) as [H1 H2].
    destruct (po_success _); [destruct (strip _) as [|c t]; [|destruct (vd && _)%bool; [destruct (N.eqb c colon)|]]|];
      injection E as <- <-; try exact H1.
    (* the description does not begin with the colon it should begin with *)
    apply Forall_app. split; [exact H1|]. apply dok_upto. lia.
  Qed.
End Bounded.

Lemma part_with_fields_ok p ln q column fields p' ds : part_with_fields p ln q column fields = (p', ds) ->
  column + length fields <= length q -> Forall (dok True ln q) ds.
Proof.
  unfold part_with_fields. intros E H. destruct fields as [|c t]; [injection E as <- <-; constructor|].
  destruct (parse_fields_d _ _ _ _ _ _ _) as [r d] eqn:Ep. eapply (parse_fields_ok True) in Ep; [|intros _; apply le_n|exact H].
  destruct (po_success r); injection E as <- <-; exact Ep.
Qed.

Lemma attributes_transform_line ln q marker : forall raws acc r ds,
  attributes_transform ln q marker raws acc = (r, ds) -> Forall (on_line ln) ds.
Proof.
  induction raws as [|a t IH]; intros acc r ds E; cbn [attributes_transform] in E; [injection E as <- <-; constructor|].
  destruct (opts_list_d ln q marker (Some a)) as [opts dl] eqn:Eo.
  (* b := False: nothing is claimed of the quoted text and the caret, only the line (dok_line); the bound m is then free,
     and here and below it is left open and fixed by le_n *)
  eapply (opts_list_ok False), dok_line in Eo; [|intros []|intros x [= <-]; apply le_S, le_n].
  destruct opts as [|o [|o2 [|o3 l]]].
  1, 4: (* no option, or more than two: the transformation stops here *) injection E as <- <-; exact Eo.
  all: (* one or two: it goes on with the other attributes *)
    destruct (attributes_transform _ _ _ t _) as [r' ds'] eqn:Et; apply IH in Et; injection E as <- <-; apply Forall_app; split; assumption.
Qed.

Lemma parse_annotation_line ln q column annotation r ds : parse_annotation_d ln q column annotation = (r, ds) -> Forall (on_line ln) ds.
Proof. intro E. eapply (parse_annotation_ok False), dok_line in E; [exact E|intros []|apply le_n]. Qed.

Lemma placed_mono base lines all all' d : (forall x, In x all -> In x all') -> placed base lines all d -> placed base lines all' d.
Proof.
  intros Hi (k & Hk & Hl & H). exists k. split; [exact Hk|]. split; [exact Hl|].
  destruct H as [H|(d' & H1 & H2)]; [left; exact H|right]. exists d'. split; [apply Hi; exact H1|exact H2].
Qed.
Lemma placed_app base lines more all d : placed base lines all d -> placed base (lines ++ more) all d.
Proof. intros (k & Hk & H). exists k. rewrite app_length, app_nth1 by exact Hk. split; [lia|exact H]. Qed.
Lemma placed_shift base l lines all d : placed (S base) lines all d -> placed base (l :: lines) all d.
Proof. intros (k & Hk & Hl & H). exists (S k). cbn [length nth]. split; [lia|]. split; [lia|exact H]. Qed.

Lemma placed_opt k base lines all (c : bool) e code ln col q :
  k < length lines -> ln = base + k -> nth k lines [] = q -> col <= length q ->
  Forall (placed base lines all) (if c then [mkd e code ln col q] else []).
Proof.
  intros Hk -> <- Hc. destruct c; constructor; [|constructor]. exists k. split; [exact Hk|]. split; [reflexivity|].
  left. right. split; [reflexivity|]. exists col. auto.
Qed.

(* the diagnostics of one source line, all together: each is placed, the tag-style ones by one of them *)
Definition line_placed (ln : nat) (q : str) (new : list diag) : Prop := Forall (placed ln [q] new) new.

Lemma placed_one_line ln q all d : dg_line d = ln ->
  quoted_ok d q \/ (exists d', In d' all /\ dg_code d' = 13 /\ dg_line d' = dg_line d) -> placed ln [q] all d.
Proof. intros Hl H. exists 0. split; [apply Nat.lt_0_1|]. split; [rewrite Hl; apply plus_n_O|exact H]. Qed.

Lemma line_placed_app ln q ds new : Forall (dok True ln q) ds -> line_placed ln q new -> line_placed ln q (ds ++ new).
Proof.
  intros Hd Hn. apply Forall_app. split.
  - eapply Forall_impl; [|exact Hd]. intros d [Hl Hq]. apply placed_one_line; [exact Hl|left; exact (Hq I)].
  - eapply Forall_impl; [|exact Hn]. intro d. apply placed_mono, incl_appr, incl_refl.
Qed.

Definition appends (P : list diag -> Prop) (st st' : lst) : Prop := exists new, l_diags st' = l_diags st ++ new /\ P new.
(* cx describes a source line and the text behind its asterisk; a step appends diagnostics placed on that line *)
Definition cx_ok (cx : lctx) : Prop := cx_co cx + length (cx_line cx) = length (cx_orig cx).
Definition ext (cx : lctx) : lst -> lst -> Prop := appends (line_placed (cx_ln cx) (cx_orig cx)).

Lemma appends_nil (P : list diag -> Prop) st st' : l_diags st' = l_diags st -> P [] -> appends P st st'.
Proof. intros E H. exists []. split; [rewrite app_nil_r; exact E|exact H]. Qed.
Lemma ext_dok cx st st' : appends (Forall (dok True (cx_ln cx) (cx_orig cx))) st st' -> ext cx st st'.
Proof. intros (new & E & H). exists new. split; [exact E|]. rewrite <- (app_nil_r new). apply line_placed_app; [exact H|constructor]. Qed.

Lemma ext_after cx st st1 st' ds : l_diags st1 = l_diags st ++ ds -> Forall (dok True (cx_ln cx) (cx_orig cx)) ds ->
  ext cx st1 st' -> ext cx st st'.
Proof.
  intros E1 Hd (new & E & H). exists (ds ++ new). split; [rewrite E, E1; apply app_assoc_reverse|apply line_placed_app; assumption].
Qed.

Lemma ext_tag13 cx st st' d : dg_code d = 13 -> on_line (cx_ln cx) d ->
  (exists rest, l_diags st' = l_diags st ++ d :: rest /\ Forall (on_line (cx_ln cx)) rest) -> ext cx st st'.
Proof.
  intros Hc Hl (rest & E & H). exists (d :: rest). split; [exact E|].
  apply (Forall_impl (P := on_line (cx_ln cx))); [|constructor; assumption].
  intros d' Hd'. apply placed_one_line; [exact Hd'|right]. exists d. split; [left; reflexivity|]. split; [exact Hc|].
  rewrite Hd'. exact Hl.
Qed.

(* What a function reports is a concatenation of optional single diagnostics and of what the functions it calls report.
   Once the concatenation is split ([rewrite ?Forall_app]) these hints decide the options and place each literal diagnostic:
   without position, or by arithmetic from the bounds in the context; what a callee reports is placed by the fact about the
   callee that the caller has put in the context.  Hints and tactic are for this file only. *)
Create HintDb placing.
#[local] Hint Resolve Forall_nil dok_one0 : placing.
#[local] Hint Extern 1 (Forall (dok True _ _) [mkd _ _ _ _ _]) => apply dok_one; lia : placing.
#[local] Hint Extern 1 (Forall (on_line _) [_]) => constructor; [reflexivity|constructor] : placing.
#[local] Hint Extern 3 (Forall _ (match ?c with _ => _ end)) => destruct c : placing.
(* the result is the state with diagnostics appended: exhibit them, split them and place each piece with the hints *)
Local Ltac reports := eexists; split; [cbn; reflexivity|rewrite ?Forall_app; solve [auto with placing]].

Lemma plain_tag_part_ok ln q fcol tlow tfields tag ds exc : plain_tag_part ln q fcol tlow tfields = (tag, ds, exc) ->
  fcol + length tfields <= length q -> Forall (dok True ln q) ds.
Proof.
  unfold plain_tag_part. intros E H. destruct tfields as [|fc ft]; [injection E as <- <- <-; constructor|].
  destruct (parse_fields_d _ _ _ _ _ _ _) as [r d] eqn:Ep. eapply (parse_fields_ok True) in Ep; [|intros _; apply le_n|exact H].
  destruct (po_success r); [|injection E as <- <- <-; exact Ep].
  destruct (_ || _)%bool; [destruct (bmatch re_tagver d)|destruct (str_eqb tlow tag_stability); [destruct (bmatch re_tagstab d)|]];
    injection E as <- <- <-; rewrite Forall_app; auto with placing.
Qed.

(* a line that matches a pattern with a name group and a fields group: a caret under the name, and the fields, lie within
   the source line *)
Lemma groups_ok cx r cs gname gfields : cx_ok cx -> bmatch r (cx_line cx) = Some cs ->
  gstart gname cs + cx_co cx <= length (cx_orig cx)
  /\ cx_co cx + gstart gfields cs + length (gtext gfields (cx_line cx) cs) <= length (cx_orig cx).
Proof.
  unfold cx_ok. intros Hc Hm. pose proof (gtext_bound _ _ _ gname Hm). pose proof (gtext_bound _ _ _ gfields Hm). lia.
Qed.

Definition ident_ok (line : str) (idn : ident) : Prop :=
  (forall f, id_fields idn = Some f -> id_fstart idn + length f <= length line) /\ id_dstart idn <= length line.

Lemma ident_ok_groups r line cs name gd gf : bmatch r line = Some cs ->
  ident_ok line {| id_name := name; id_delim := Some (gtext gd line cs); id_fields := Some (gtext gf line cs);
                   id_fstart := gstart gf cs; id_dstart := gstart gd cs |}.
Proof.
  intro H. pose proof (gtext_bound _ _ _ gf H). pose proof (gtext_bound _ _ _ gd H). split; cbn; [|lia]. intros f [= <-]. lia.
Qed.

Lemma match_ident_ok line idn : match_ident line = Some idn -> ident_ok line idn.
Proof.
  assert (Hnone : forall name, ident_ok line {| id_name := name; id_delim := None; id_fields := None; id_fstart := 0; id_dstart := 0 |}).
  { split; cbn; [discriminate|lia]. }
  unfold match_ident, ident4.
  destruct (bmatch re_section line); [intros [= <-]; apply Hnone|].
  destruct (bmatch re_property line) eqn:E2; [intros [= <-]; exact (ident_ok_groups _ _ _ _ _ _ E2)|].
  destruct (bmatch re_signal line) eqn:E3; [intros [= <-]; exact (ident_ok_groups _ _ _ _ _ _ E3)|].
  destruct (bmatch re_action line); [intros [= <-]; apply Hnone|].
  destruct (bmatch re_field line) eqn:E5; [intros [= <-]; exact (ident_ok_groups _ _ _ _ _ _ E5)|].
  destruct (bmatch re_symbol line) eqn:E6; [intros [= <-]; exact (ident_ok_groups _ _ _ _ _ _ E6)|discriminate].
Qed.

Lemma step_ident_ok cx cb ca bl st : cx_ok cx -> ext cx st (step_ident cx cb ca bl st).
Proof.
  intro Hc. unfold cx_ok in Hc. apply ext_dok. unfold step_ident.
  destruct (match_ident (cx_line cx)) as [idn|] eqn:Ei; [|reports].
  apply match_ident_ok in Ei as [Hf Hd].
  destruct (id_fields idn) as [[|fc ft]|]; [reports| |reports].
  specialize (Hf _ eq_refl).
  destruct (parse_annotations_ok True (cx_ln cx) (cx_orig cx) _ (fun _ => le_n _) true (cx_co cx + id_fstart idn) (fc :: ft) None) as [Hp _]; [lia|].
  destruct (po_success _); [destruct (nonempty _)|]; reports.
Qed.

Lemma step_param_ok cx cs b st : cx_ok cx -> bmatch re_parameter (cx_line cx) = Some cs -> ext cx st (step_param cx cs b st).
Proof.
  intros Hc Hm. destruct (groups_ok cx _ cs g_parameter_parameter_name g_parameter_fields Hc Hm) as [Hmark Hfb]. apply ext_dok. unfold step_param.
  destruct (str_eqb _ tag_returns);
    destruct (part_with_fields _ _ _ _ _) as [p ds] eqn:Ep; apply part_with_fields_ok in Ep; try exact Hfb; reports.
Qed.

(* step_cont in pieces: a continuation line of one parameter or tag, of the parameter or tag in progress, of the
   identifier or the description *)
Definition cont_part (cx : lctx) (line : str) (l : list part) (k : str) : list part * list diag :=
  match part_get l k with
  | None => (l, [])
  | Some p =>
      if truthy (pt_desc p) then (part_set l (part_with p (pt_anns p) (pt_apos p) (add_line (pt_desc p) line) (pt_value p)), [])
      else
        let '(r, d) := parse_fields_d true true (cx_ln cx) (cx_orig cx) (cx_co cx) line (Some (pt_anns p, pt_apos p)) in
        if po_success r && po_changed r then (part_set l (part_with p (po_anns r) (po_apos r) (Some d) (pt_value p)), po_diags r)
        else (part_set l (part_with p (pt_anns p) (pt_apos p) (add_line (pt_desc p) line) (pt_value p)), po_diags r)
  end.
Definition cont_cur (cx : lctx) (line : str) (b : blk) (st : lst) : lst :=
  match l_cur st with
  | CurParam k => let '(ps, ds) := cont_part cx line (bk_params b) k in
                  add_diags (set_blk st (blk_with b (bk_anns b) (bk_apos b) ps (bk_desc b) (bk_tags b))) ds
  | CurTag k => let '(ts, ds) := cont_part cx line (bk_tags b) k in
                add_diags (set_blk st (blk_with b (bk_anns b) (bk_apos b) (bk_params b) (bk_desc b) ts)) ds
  | CurNone => st
  end.
Definition cont_desc (cx : lctx) (line : str) (b : blk) (st : lst) : lst :=
  let try_anns := negb (truthy (bk_desc b)) && match l_part st with Some PIdent => true | _ => false end in
  let r := parse_annotations_d true (cx_ln cx) (cx_orig cx) (cx_co cx) line (Some (bk_anns b, bk_apos b)) in
  if try_anns && po_success r && po_changed r then
    add_diags (set_blk st (blk_with b (po_anns r) (po_apos r) (bk_params b) (bk_desc b) (bk_tags b))) (po_diags r)
  else
    add_diags (set_blk st (blk_with b (bk_anns b) (bk_apos b) (bk_params b) (add_line (bk_desc b) line) (bk_tags b)))
              (if try_anns then po_diags r else []).
Definition cont_line (cx : lctx) : str := if is_empty_line (cx_line cx) then cx_line cx else rstrip (cx_line cx).

Lemma step_cont_eq cx b st :
  step_cont cx b st = match l_part st with
                      | Some PParams | Some PTags => cont_cur cx (cont_line cx) b st
                      | _ => cont_desc cx (cont_line cx) b st
                      end.
Proof. reflexivity. Qed.

Lemma cont_line_bound cx : cx_ok cx -> cx_co cx + length (cont_line cx) <= length (cx_orig cx).
Proof.
  unfold cx_ok, cont_line. intro Hc. destruct (is_empty_line _); [lia|].
  pose proof (segment_length _ _ (segment_rstrip (cx_line cx))). lia.
Qed.

Section Continuation.
  Context (cx : lctx) (line : str) (Hb : cx_co cx + length line <= length (cx_orig cx)).

  Lemma cont_part_ok l k ps ds : cont_part cx line l k = (ps, ds) -> Forall (dok True (cx_ln cx) (cx_orig cx)) ds.
  Proof.
    unfold cont_part. intro E. destruct (part_get l k) as [p|]; [|injection E as <- <-; constructor].
    destruct (truthy (pt_desc p)); [injection E as <- <-; constructor|].
    destruct (parse_fields_d _ _ _ _ _ _ _) as [r d] eqn:Ep. eapply (parse_fields_ok True) in Ep; [|intros _; apply le_n|exact Hb].
    destruct (_ && _)%bool; injection E as <- <-; exact Ep.
  Qed.

  Lemma cont_cur_ok b st : ext cx st (cont_cur cx line b st).
  Proof.
    apply ext_dok. unfold cont_cur. destruct (l_cur st) as [|k|k]; [apply appends_nil; [reflexivity|constructor]| |];
      destruct (cont_part _ _ _ k) as [ps ds] eqn:E; apply cont_part_ok in E; reports.
  Qed.

  Lemma cont_desc_ok b st : ext cx st (cont_desc cx line b st).
  Proof.
    apply ext_dok. unfold cont_desc.
    destruct (parse_annotations_ok True (cx_ln cx) (cx_orig cx) _ (fun _ => le_n _) true (cx_co cx) line
                (Some (bk_anns b, bk_apos b)) Hb) as [Hp _].
    destruct (negb _ && _)%bool; cbn [andb]; [destruct (_ && _)%bool|]; reports.
  Qed.
End Continuation.

Lemma step_cont_ok cx b st : cx_ok cx -> ext cx st (step_cont cx b st).
Proof.
  intro Hc. apply cont_line_bound in Hc. rewrite step_cont_eq.
  pose proof (cont_cur_ok cx _ Hc b st) as Hcur. pose proof (cont_desc_ok cx _ Hc b st) as Hdesc.
  destruct (l_part st) as [[]|]; assumption.
Qed.

(* a deprecated tag is parsed with other texts as the quoted line: it reports diagnostic 13 first, and everything on its line *)
Lemma step_deprecated_tag_ok cx cs b st : ext cx st (step_deprecated_tag cx cs b st).
Proof.
  apply (ext_tag13 _ _ _ (mkd false 13 (cx_ln cx) (gstart g_tag_tag_name cs + cx_co cx) (cx_orig cx))); [reflexivity|reflexivity|].
  unfold step_deprecated_tag. destruct (str_eqb _ tag_attributes).
  - destruct (parse_fields_d _ _ _ _ _ _ _) as [r dd] eqn:Ef. eapply (parse_fields_ok False), dok_line in Ef; [|intros []|apply le_n].
    destruct (po_success r); [|reports].
    destruct (attributes_transform _ _ _ _ _) as [tr dt] eqn:Et. apply attributes_transform_line in Et.
    destruct tr as [[|tc tt]|]; [reports| |reports].
    destruct (parse_annotation_d _ _ _ _) as [pa da] eqn:Ep. apply parse_annotation_line in Ep.
    destruct pa as [[nm v]|]; [destruct (match ann_get _ _ with Some _ => _ | None => _ end)|]; reports.
  - destruct (parse_annotation_d _ _ _ _) as [pa da] eqn:Ep. apply parse_annotation_line in Ep. destruct pa as [[nm v]|]; reports.
Qed.

Lemma step_tag_ok cx cs b st : cx_ok cx -> bmatch re_tag (cx_line cx) = Some cs -> ext cx st (step_tag cx cs b st).
Proof.
  intros Hc Hm. destruct (groups_ok cx _ cs g_tag_tag_name g_tag_fields Hc Hm) as [Hmark Hfb]. unfold step_tag.
  (* step_tag first resets l_pindent; ext looks at l_diags alone, which that copy of the state keeps: the goal converts *)
  destruct (existsb (str_eqb _) deprecated_ann_tags); [apply (step_deprecated_tag_ok cx cs b (Build_lst _ _ _ _ _ _ _ _ _))|].
  apply ext_dok.
  destruct (str_eqb _ tag_description); [reports|].
  destruct (existsb (str_eqb _) return_tag_names).
  - destruct (part_with_fields _ _ _ _ _) as [tag ds] eqn:Ep. apply part_with_fields_ok in Ep; [reports|exact Hfb].
  - destruct (plain_tag_part _ _ _ _ _) as [[tag ds] exc] eqn:Ep. apply plain_tag_part_ok in Ep; [reports|exact Hfb].
Qed.

(* the pair (column_offset, d6) that step computes first: where the text behind the asterisk starts, and the diagnostic about
   what stands in front of the asterisk *)
Lemma asterisk_prelude_ok ln line0 co d6 :
  match bmatch re_asterisk line0 with
  | Some cs => (gend 0 cs, if nonempty (gtext g_asterisk_comment line0 cs) then [mkd true 6 ln (gstart g_asterisk_comment cs) line0] else [])
  | None => (0, [])
  end = (co, d6) -> co <= length line0 /\ Forall (dok True ln line0) d6.
Proof.
  destruct (bmatch re_asterisk line0) as [cs|] eqn:Ea; intros [= <- <-]; [|split; [lia|constructor]].
  destruct (gspan_bounds _ _ _ 0 Ea), (gspan_bounds _ _ _ g_asterisk_comment Ea). split; [lia|].
  destruct (nonempty _); [apply dok_one; lia|constructor].
Qed.

Lemma step_ok cb ca bl ln line0 st : appends (line_placed ln line0) st (step cb ca bl ln line0 st).
Proof.
  unfold step.
  destruct (match bmatch re_asterisk line0 with Some cs => _ | None => _ end) as [co d6] eqn:Epre.
  apply asterisk_prelude_ok in Epre as [Hco Hd6].
  set (cx := Build_lctx ln line0 (skipn co line0) co _). set (st1 := Build_lst (l_blk st) _ _ _ _ _ _ (l_diags st ++ d6) _).
  assert (Hcx : cx_ok cx) by (unfold cx_ok, cx; cbn; rewrite skipn_length; lia).
  apply (ext_after cx st st1 _ d6 eq_refl Hd6).
  cbn [l_blk st1].
  destruct (l_blk st) as [b|]; [|apply step_ident_ok, Hcx].
  destruct (bmatch re_parameter _) as [cs|] eqn:Ep; [apply step_param_ok; assumption|].
  destruct (_ && _)%bool; [apply appends_nil; [reflexivity|constructor]|].
  destruct (bmatch re_tag _) as [cs|] eqn:Et; [|apply step_cont_ok, Hcx].
  destruct (Nat.leb _ _); [apply step_tag_ok; assumption|apply step_cont_ok, Hcx].
Qed.

Lemma run_lines_ok cb ca bl : forall lines ln st,
  appends (fun new => Forall (placed (S ln) lines new) new) st (run_lines cb ca bl ln lines st).
Proof.
  induction lines as [|l t IH]; intros ln st; cbn [run_lines].
  - apply appends_nil; [reflexivity|constructor].
  - destruct (step_ok cb ca bl (S ln) l st) as (n1 & E1 & H1), (IH (S ln) (step cb ca bl (S ln) l st)) as (n2 & E2 & H2).
    exists (n1 ++ n2). rewrite E2, E1, app_assoc. split; [reflexivity|]. apply Forall_app. split.
    + eapply Forall_impl; [|exact H1]. intros d H. apply (placed_app _ [l] t), (placed_mono _ _ n1); [apply incl_appl, incl_refl|exact H].
    + eapply Forall_impl; [|exact H2]. intros d H. apply placed_shift, (placed_mono _ _ n2); [apply incl_appr, incl_refl|exact H].
Qed.
