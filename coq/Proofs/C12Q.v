From Coq Require Import List Arith Lia.
From GIV.Lib Require Import Regex Facts.
From GIV.Model Require Import C12Q.
Import ListNotations.

Lemma set_domain_length es : forall i d, List.length (set_domain es i d) = List.length es.
Proof. induction es as [|e t IH]; intros [|j] d; cbn; try reflexivity; rewrite IH; reflexivity. Qed.

Lemma set_domain_nth es : forall i d j,
  nth_error (set_domain es i d) j =
  if Nat.eqb i j then option_map (fun e => {| qe_name := qe_name e; qe_prefix := qe_prefix e; qe_domain := Some d |}) (nth_error es j)
  else nth_error es j.
Proof.
  induction es as [|e t IH]; intros [|i] d [|j]; cbn; try reflexivity.
  - destruct (Nat.eqb i j); reflexivity.
  - apply IH.
Qed.

Lemma qstep_eq es w q :
  qstep (es, w) q = match target es (q_short q) with
                    | Some i => (set_domain es i (q_domain q), w)
                    | None => (es, w ++ [q_short q])
                    end.
Proof. unfold qstep, pair_one. cbn [fst snd]. destruct (target es (q_short q)); reflexivity. Qed.

(* what does not look at the domains sees the same enumerations throughout *)
Section Blind.
  Context {B} (f : qenum -> B)
          (Hf : forall e d, f {| qe_name := qe_name e; qe_prefix := qe_prefix e; qe_domain := Some d |} = f e).

  Lemma map_set_domain es : forall i d, map f (set_domain es i d) = map f es.
  Proof. induction es as [|e t IH]; intros [|j] d; cbn; try reflexivity; [rewrite Hf | rewrite IH]; reflexivity. Qed.

  Lemma map_pair_all qs : forall st, map f (fst (fold_left qstep qs st)) = map f (fst st).
  Proof.
    induction qs as [|q t IH]; intros [es w]; cbn [fold_left]; [reflexivity|]. rewrite IH, qstep_eq.
    destruct (target es (q_short q)); [apply map_set_domain | reflexivity].
  Qed.
End Blind.

Lemma find_index_map {A B} (f : A -> bool) (g : B -> bool) l : forall l' i,
  map f l = map g l' -> find_index f l i = find_index g l' i.
Proof.
  induction l as [|x t IH]; intros [|y u] i H; try discriminate H; [reflexivity|].
  injection H as H1 H2. cbn. rewrite H1, (IH u (S i) H2). reflexivity.
Qed.

Lemma find_index_ext {A} (f g : A -> bool) l : forall i, map f l = map g l -> find_index f l i = find_index g l i.
Proof. intro i. apply find_index_map. Qed.

(* names and prefixes never change, so the enumeration a quark belongs to does not depend on the quarks before it *)
Lemma target_stable es i d short : target (set_domain es i d) short = target es short.
Proof.
  unfold target, by_prefix, by_name.
  rewrite !(find_index_map _ _ (set_domain es i d) es) by (apply map_set_domain; reflexivity). reflexivity.
Qed.

Lemma find_index_bound {A} (f : A -> bool) l : forall i k, find_index f l i = Some k -> (i <= k < i + List.length l)%nat.
Proof.
  induction l as [|x t IH]; intros i k H; [discriminate|]. cbn in *.
  destruct (f x); [injection H as <- | apply IH in H]; lia.
Qed.

Lemma target_bound es short k : target es short = Some k -> (k < List.length es)%nat.
Proof.
  unfold target, by_prefix, by_name.
  destruct (find_index _ es 0) eqn:E; [intros [= <-] | clear E; intro E]; apply find_index_bound in E; lia.
Qed.

(* state after all quarks: the domain of enumeration j is that of the last quark whose target is j, or what it was *)
Definition last_domain (es : list qenum) (qs : list quark) (j : nat) (acc : option str) : option str :=
  fold_left (fun acc q => match target es (q_short q) with
                          | Some i => if Nat.eqb i j then Some (q_domain q) else acc
                          | None => acc
                          end) qs acc.

Lemma last_domain_none es qs j acc :
  (forall q, In q qs -> target es (q_short q) <> Some j) -> last_domain es qs j acc = acc.
Proof.
  intro H. apply (fold_left_invariant (fun a => a = acc)); [|reflexivity]. intros a q T%H ->.
  destruct (target es (q_short q)) as [i|]; [|reflexivity].
  destruct (Nat.eqb_spec i j) as [->|_]; [contradiction | reflexivity].
Qed.

Lemma last_domain_single es pre q post j acc :
  target es (q_short q) = Some j ->
  (forall q', In q' post -> target es (q_short q') <> Some j) ->
  last_domain es (pre ++ q :: post) j acc = Some (q_domain q).
Proof.
  intros T H. unfold last_domain. rewrite fold_left_app. cbn [fold_left].
  rewrite T, Nat.eqb_refl. apply last_domain_none, H.
Qed.

(* [es0] are the enumerations at the start, [es] those reached: every quark is looked up as if in [es0] *)
Lemma pair_all_state es0 qs : forall es w,
  (forall short, target es short = target es0 short) ->
  let r := fold_left qstep qs (es, w) in
  (forall j, option_map qe_domain (nth_error (fst r) j)
             = option_map (fun e => last_domain es0 qs j (qe_domain e)) (nth_error es j))
  /\ snd r = w ++ map q_short (filter (fun q => match target es0 (q_short q) with None => true | Some _ => false end) qs).
Proof.
  induction qs as [|q t IH]; intros es w Ht; unfold last_domain; cbn [fold_left filter map fst snd].
  - split; [intro j; destruct (nth_error es j); reflexivity | symmetry; apply app_nil_r].
  - rewrite qstep_eq, Ht. destruct (target es0 (q_short q)) as [i|].
    + destruct (IH (set_domain es i (q_domain q)) w) as [D U].
      { intro short. rewrite target_stable. apply Ht. }
      split; [|exact U]. intro j. rewrite D, set_domain_nth.
      destruct (Nat.eqb i j), (nth_error es j); reflexivity.
    + destruct (IH es (w ++ [q_short q]) Ht) as [D U]. split; [exact D|].
      rewrite U, <- app_assoc. reflexivity.
Qed.

Theorem error_domains es qs :
  let r := pair_all es qs in
  map qe_name (fst r) = map qe_name es /\ map qe_prefix (fst r) = map qe_prefix es
  /\ (forall j e, nth_error es j = Some e ->
        option_map qe_domain (nth_error (fst r) j) = Some (last_domain es qs j (qe_domain e)))
  /\ snd r = map q_short (filter (fun q => match target es (q_short q) with None => true | Some _ => false end) qs).
Proof.
  destruct (pair_all_state es qs es [] (fun _ => eq_refl)) as [C D].
  repeat split; [apply map_pair_all; reflexivity.. | | exact D]. intros j e He. fold (pair_all es qs) in C. rewrite C, He. reflexivity.
Qed.
