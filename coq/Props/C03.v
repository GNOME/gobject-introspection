(* C03 — identifier-level annotations and tags land on the right GIR element.
   Model: Model/C03.v, which finds a block by its key with [blocks_lookup] of Model/C16.v (lemmas in
   Proofs/C16.v); tied to /repo by harness/c03.py (generated worlds with comment blocks through the
   real comment parser, MainTransformer, IntrospectablePass and GIRWriter, compared element by element
   inside Coq). *)
From Coq Require Import List NArith String.
From GIV.Lib Require Import Str.
From GIV.Model Require Import C02 C16 C03.
From GIV.Proofs Require C16.
From GIV.Proofs Require Import C03.
Import ListNotations.
Local Open Scope N_scope.

(* a comment block documents only the element whose key it carries: a block with another key,
   wherever it stands, changes nothing about this element *)
Theorem C03_other_block_is_inert : forall blocks1 blocks2 key0 b0 k sk owner name,
  str_eqb key0 (block_key k owner name) = false ->
  element_meta (blocks1 ++ (key0, b0) :: blocks2) k sk owner name = element_meta (blocks1 ++ blocks2) k sk owner name.
Proof.
  intros blocks1 blocks2 key0 b0 k sk owner name H. unfold element_meta.
  rewrite !Proofs.C16.blocks_lookup_app. cbn. rewrite H. reflexivity.
Qed.
Print Assumptions C03_other_block_is_inert.

(* ... its own block is the one used, and without one it carries no identifier-level data *)
Theorem C03_own_block : forall blocks k sk owner name,
  (forall key b, NoDup (map fst blocks) -> In (key, b) blocks -> key = block_key k owner name ->
     element_meta blocks k sk owner name = meta_of sk (Some b))
  /\ (~ In (block_key k owner name) (map fst blocks) -> element_meta blocks k sk owner name = no_meta).
Proof.
  intros blocks k sk owner name. unfold element_meta. split.
  - intros key b N Hin ->. rewrite (Proofs.C16.blocks_lookup_unique blocks _ b None N Hin). reflexivity.
  - intros H. rewrite Proofs.C16.blocks_lookup_absent by exact H. reflexivity.
Qed.
Print Assumptions C03_own_block.

(* Class:prop, Class::sig and Struct.field keys determine owner and member, and a property key is
   never a signal key *)
Theorem C03_keys_injective : forall k owner name owner' name',
  member_kind k = true ->
  (forall c, In c (sep k) -> ~ In c owner /\ ~ In c owner' /\ ~ In c name /\ ~ In c name') ->
  block_key k owner name = block_key k owner' name' -> owner = owner' /\ name = name'.
Proof.
  intros k owner name owner' name' Hk Hs E.
  destruct k; try discriminate; destruct (Hs _ (or_introl eq_refl)) as (A & B & _); exact (sep_key_inj _ _ _ _ _ _ A B E).
Qed.
Print Assumptions C03_keys_injective.

Theorem C03_property_never_signal : forall owner name owner' name',
  ~ In 58 owner -> ~ In 58 owner' -> ~ In 58 name ->
  block_key EProperty owner name <> block_key ESignal owner' name'.
Proof.
  intros owner name owner' name' A B C E.
  destruct (sep_key_inj 58 [] owner name owner' (58 :: name') A B E) as [_ ->]. apply C. left. reflexivity.
Qed.
Print Assumptions C03_property_never_signal.

(* Since / Deprecated / Stability / skip / description become version, deprecation, stability,
   introspectable and doc of the documented element *)
Theorem C03_tags : forall sk b,
  let m := meta_of sk (Some b) in
  m_version m = tag_value (b_since b) /\ m_version_doc m = tag_desc (b_since b)
  /\ m_deprecated m = tag_value (b_deprecated b) /\ m_deprecated_doc m = tag_desc (b_deprecated b)
  /\ m_stability m = tag_value (b_stability b) /\ m_stability_doc m = tag_desc (b_stability b)
  /\ m_skip m = b_skip b /\ m_doc m = nonempty (b_desc b).
Proof. intros sk b. cbn. repeat split; reflexivity. Qed.
Print Assumptions C03_tags.

(* the function annotations (finish/sync/async-func, set/get-property, ref/unref/..., copy/free,
   setter/getter/default-value, emitter, value) appear as the corresponding GIR attribute naming the
   given target, on the kinds of element they belong to and on no other *)
Theorem C03_target_annotations : forall sk b,
  (forall ann gir c v, In (ann, gir) (extra_map sk) -> ann_first (b_anns b) ann = Some (c :: v) ->
     In (s gir, c :: v) (m_extra (meta_of sk (Some b))))
  /\ (forall a v, In (a, v) (m_extra (meta_of sk (Some b))) ->
        exists ann gir, In (ann, gir) (extra_map sk) /\ a = s gir /\ ann_first (b_anns b) ann = Some v /\ v <> []).
Proof.
  intros sk b. cbn. split.
  - intros ann gir c v Hin H. rewrite in_flat_map. exists (ann, gir). split; [exact Hin|]. cbn. rewrite H. left. reflexivity.
  - intros a v. rewrite in_flat_map. intros ([ann gir] & Hin & H). cbn in H.
    destruct (ann_first (b_anns b) ann) as [[|c w]|] eqn:E; try contradiction.
    destruct H as [[= <- <-]|[]]. exists ann, gir. repeat split; try assumption. discriminate.
Qed.
Print Assumptions C03_target_annotations.

(* rename-to: after any sequence of rename-to requests on functions that start unpaired, every
   shadows has its shadowed-by and vice versa, in the data and in what the GIR shows (repaired
   tree, fix faa1326) *)
Theorem C03_rename_to_pairs : forall fs reqs,
  NoDup (map f_name fs) -> Forall (fun f => f_shadows f = None /\ f_shadowed_by f = None) fs ->
  let fs' := rename_all true fs reqs in
  paired fs'
  /\ forall a f, get fs' a = Some f ->
       (forall g, fst (shown f) = Some g -> exists p, get fs' g = Some p /\ snd (shown p) = Some a)
       /\ (forall g, snd (shown f) = Some g -> exists p, get fs' g = Some p /\ fst (shown p) = Some a).
Proof.
  intros fs reqs N F. destruct (rename_all_paired reqs fs (conj N (fresh_paired fs F))) as [_ P].
  split; [exact P|]. intros a f G. exact (shown_pairs _ a f P G).
Qed.
Print Assumptions C03_rename_to_pairs.

(* the check as found let a function be shadowed and shadowing at once: what the GIR shows is
   then not a mutual pair *)
Theorem C03_rename_to_refuted_before_fix :
  let fs := rename_all false [fresh "a"; fresh "b"; fresh "c"] [(s "c", s "foo_a"); (s "a", s "foo_b")] in
  exists fb fa, get fs (s "b") = Some fb /\ get fs (s "a") = Some fa
                /\ snd (shown fb) = Some (s "a") /\ fst (shown fa) = None.
Proof. vm_compute. eexists. eexists. repeat split; reflexivity. Qed.
Print Assumptions C03_rename_to_refuted_before_fix.

(* a virtual method with a block of its own (Class::slot, keyed by the class structure) is documented by it; without one it
   carries exactly what its invoker's block says - version, deprecation, stability, documentation, attributes - and
   without invoker nothing at all *)
Theorem C03_virtual_method_blocks : forall blocks st v,
  (forall inv b, blocks_lookup blocks (block_key EVFunc st v) None = Some b -> vfunc_meta blocks st v inv = meta_of SFunction (Some b))
  /\ (forall sym, blocks_lookup blocks (block_key EVFunc st v) None = None ->
        vfunc_meta blocks st v (Some sym) = element_meta blocks EFunction SFunction [] sym)
  /\ (blocks_lookup blocks (block_key EVFunc st v) None = None -> vfunc_meta blocks st v None = no_meta).
Proof.
  intros blocks st v. unfold vfunc_meta, element_meta. split; [|split].
  - intros inv b ->. reflexivity.
  - intros sym ->. reflexivity.
  - intros ->. reflexivity.
Qed.
Print Assumptions C03_virtual_method_blocks.
