(* C11 — comment parsing never aborts, and its diagnostics point at the source.
   Models: Model/C11.v (counting/suppression of diagnostics, line numbering of a block), Model/C10.v (where
   the annotation-field errors are reported) and, for the theorems from C11_diagnostics_placed on, the
   block-level parser Model/C10B.v with the specification of a placed diagnostic in Model/C11B.v.
   Tied to /repo by harness/c11.py: arbitrary and mutated comment texts through the real
   parse_comment_blocks (no exception, sibling blocks kept, malformed annotations not half-applied), every
   diagnostic's file/line/quoted line/caret checked against the source, counts with and without display
   compared; the block-level model is tied to the real parser by harness/c10b.py. *)
From Coq Require Import List Arith String Lia.
From GIV.Lib Require Import Backtrack.
From GIV.Gen Require Import BlockRegex.
From GIV.Model Require Import C02 C10 C11 C10B C10BSpec C11B.
From GIV.Proofs Require Import C10 C11 C11B C11E C11H.
Import ListNotations.

(* every diagnostic is counted whether or not it is displayed, so a warnings-as-errors run fails
   exactly when something was diagnosed *)
Theorem C11_counted_even_when_suppressed : forall enabled ms, l_count (log_all enabled ms) = List.length ms.
Proof. intros enabled ms. unfold log_all. rewrite fold_log_count. reflexivity. Qed.
Print Assumptions C11_counted_even_when_suppressed.

Theorem C11_fails_iff_diagnosed : forall enabled ms, run_fails (log_all enabled ms) = true <-> ms <> [].
Proof.
  intros enabled ms. unfold run_fails. rewrite C11_counted_even_when_suppressed. destruct ms; cbn; split; congruence.
Qed.
Print Assumptions C11_fails_iff_diagnosed.

(* the k-th line after an opening token that stands alone on line L is line L + 1 + k (k from 0) *)
Theorem C11_block_line_numbers : forall opening lines k x,
  nth_error lines k = Some x -> nth_error (block_lines opening lines) k = Some ((opening + 1 + k)%nat, x).
Proof. intros opening lines k x H. unfold block_lines. rewrite (number_lines_spec _ _ _ _ H), Nat.add_1_r. reflexivity. Qed.
Print Assumptions C11_block_line_numbers.

(* an error found in an annotation field is reported at a character of that field: the caret,
   placed at the field's column plus this index, lies within the quoted line *)
Theorem C11_caret_within_field : forall fields e idx,
  parse_groups fields = GErr e idx -> fields <> [] -> (idx < List.length fields)%nat.
Proof.
  unfold parse_groups. intros fields e idx H Hne.
  destruct (ploop fields 0 ps0) as [st|st|e' j] eqn:P.
  - destruct (ps_level st); [discriminate|]. injection H as _ <-. destruct fields; [congruence|]. cbn [List.length]. lia.
  - discriminate.
  - injection H as _ <-. apply ploop_fail_index in P. lia.
Qed.
Print Assumptions C11_caret_within_field.

(* the block-level model (Model/C10B.v: parse_comment_block with its regular expressions translated from the source,
   tied to the real parser by harness/c10b.py)

   In a comment whose opening and closing tokens stand alone on their lines, EVERY diagnostic of the parse phase
   - names a line of the comment (lineno + k for a k below the number of lines), and
   - when it quotes a line, quotes exactly the k-th source line and keeps its caret within it,
   or stands on a line that carries a deprecated tag-style annotation (reported by diagnostic 13 on that same line), for which
   the property claims the line number only.  `placed` and `quoted_ok` are Model/C11B.v. *)
Theorem C11_diagnostics_placed : forall comment lineno,
  let lines := split_breaks comment in
  let o := parse_block comment lineno in
  (forall cs, bmatch re_start (hd [] lines) = Some cs -> nonempty (gtext g_start_comment (hd [] lines) cs) = false) ->
  (forall ce, bmatch re_end (last (tl lines) []) = Some ce -> nonempty (gtext g_end_comment (last (tl lines) []) ce) = false) ->
  Forall (placed lineno lines (o_diags o)) (o_diags o).
Proof.
  intros comment lineno lines o Hs He. unfold o, parse_block. fold lines.
  destruct lines as [|first rest] eqn:El; [destruct (C10L.split_breaks_aux_nonempty _ _ _ El)|].
  cbn [hd tl] in *.
  destruct (bmatch re_start first) as [cs|] eqn:Es; [|constructor].
  destruct (gspan_bounds _ _ _ g_start_code Es) as [_ Hcode].
  assert (Hfirst : forall all (c : bool) e code,
            Forall (placed lineno (first :: rest) all) (if c then [mkd e code lineno (gend g_start_code cs) first] else [])).
  { intros. apply (placed_opt 0); [apply Nat.lt_0_succ|apply plus_n_O|reflexivity|exact Hcode]. }
  destruct rest as [|lastl body _] using rev_ind; [apply (Hfirst _ true)|].
  (* nothing behind the opening token: no diagnostic 3, and lines1 is rest = body ++ [lastl], whose last line is lastl *)
  rewrite (Hs cs eq_refl). cbn [List.length]. rewrite last_length, last_last in *. cbn [Nat.eqb app].
  destruct (bmatch re_end lastl) as [ce|] eqn:Ee; [|cbn [o_diags]; rewrite app_nil_r; apply Hfirst].
  (* nothing in front of the closing token: no diagnostic 5, and lines2 is body *)
  rewrite (He ce eq_refl), removelast_last, !app_nil_r.
  destruct (gspan_bounds _ _ _ g_end_code Ee) as [_ Hcode2].
  assert (Hlast : forall all (c : bool) e code, Forall (placed lineno (first :: body ++ [lastl]) all)
                    (if c then [mkd e code (lineno + S (S (List.length body)) - 1) (gend g_end_code ce) lastl] else [])).
  { intros. apply (placed_opt (S (List.length body))).
    - cbn [List.length]. rewrite last_length. apply Nat.lt_succ_diag_r.
    - rewrite Nat.add_succ_r. apply Nat.sub_0_r.
    - apply nth_middle.
    - exact Hcode2. }
  match goal with |- context [run_lines ?cb ?ca _ _ _ ?s] => destruct (run_lines_ok cb ca lineno body lineno s) as (new & Hn & Hp) end.
  cbn [l_diags] in Hn.
  assert (Hnew : forall all, incl new all -> Forall (placed lineno (first :: body ++ [lastl]) all) new).
  { intros all Hi. eapply Forall_impl; [|exact Hp]. intros d H. apply placed_shift, placed_app, (placed_mono _ _ new); assumption. }
  destruct (l_blk _); cbn [o_diags]; rewrite Hn, !Forall_app; (split; [split; [apply Hfirst|apply Hlast]|apply Hnew, incl_appr, incl_refl]).
Qed.
Print Assumptions C11_diagnostics_placed.

(* the hypotheses are met and the conclusion says something: a comment with three diagnosed lines *)
Example C11_diagnostics_placed_nonvacuous :
  let comment := s "/**
 * foo_bar: (skip
 * @p: (out) no colon
 *
 * Returns: (transfer full) (transfer none): x
 */"%string in
  (forall cs, bmatch re_start (hd [] (split_breaks comment)) = Some cs ->
     nonempty (gtext g_start_comment (hd [] (split_breaks comment)) cs) = false)
  /\ (forall ce, bmatch re_end (last (tl (split_breaks comment)) []) = Some ce ->
        nonempty (gtext g_end_comment (last (tl (split_breaks comment)) []) ce) = false)
  /\ map (fun d => (dg_code d, dg_line d, dg_col d)) (o_diags (parse_block comment 10))
     = [(26, 11, Some 16); (28, 12, Some 12); (27, 14, Some 42)]%nat.
Proof.
  cbv zeta. split; [|split].
  - intros cs H. vm_compute in H. injection H as <-. vm_compute. reflexivity.
  - intros ce H. vm_compute in H. injection H as <-. vm_compute. reflexivity.
  - vm_compute. reflexivity.
Qed.

(* Nowhere does the parser dereference a failed match: the three patterns whose result it uses without a test (INDENTATION_RE on
   every line, TAG_VALUE_VERSION_RE and TAG_VALUE_STABILITY_RE on the text of Since/Deprecated/Stability tags) match every text
   that can reach them, so the model's "CPython would raise here" flag is never set - for every comment text whatsoever.
   (Proofs/C11E.v: total_on_lines is a verified sufficient condition, evaluated on the patterns as regenerated from the source;
   the correspondence compares the flag with exceptions actually raised.) *)
Theorem C11_model_never_raises : forall comment lineno, o_exc (parse_block comment lineno) = false.
Proof.
  intros comment lineno. unfold parse_block.
  assert (Hl : Forall no_lf (split_breaks comment)) by (apply C10L.split_breaks_aux_no_lf; constructor).
  destruct (split_breaks comment) as [|first rest] eqn:El; [destruct (C10L.split_breaks_aux_nonempty _ _ _ El)|]. cbn [hd tl].
  apply Forall_cons_iff in Hl as [Hf Hr].
  destruct (bmatch re_start first) as [cs|]; [|reflexivity].
  destruct (Nat.eqb _ 1); [reflexivity|].
  set (lines1 := if nonempty _ then _ :: rest else rest).
  assert (Hl1 : Forall no_lf lines1).
  { unfold lines1. destruct (nonempty _); [constructor; [exact (Facts.segment_Forall _ _ _ (segment_gtext _ _ _) Hf)|]|]; exact Hr. }
  clearbody lines1.
  destruct (bmatch re_end (last lines1 [])) as [ce|]; [|reflexivity].
  set (lines2 := if nonempty _ then removelast lines1 ++ _ else removelast lines1).
  assert (Hl2 : Forall no_lf lines2).
  { pose proof (Facts.Forall_removelast _ _ Hl1) as Hrl. unfold lines2. destruct (nonempty _); [|exact Hrl]. apply Forall_app. split; [exact Hrl|].
    constructor; [|constructor]. apply (Facts.segment_Forall _ _ _ (segment_gtext _ _ _)), Facts.Forall_last; [exact Hl1|constructor]. }
  pose proof (run_lines_exc (gtext g_start_code first cs) (gtext g_end_code (last lines1 []) ce) lineno lines2 lineno) as Hx.
  destruct (l_blk _); cbn [o_exc]; apply Hx, Hl2.
Qed.
Print Assumptions C11_model_never_raises.

Theorem C11_unguarded_patterns_total : forall x, no_lf x ->
  bmatch re_indent x <> None /\ bmatch re_tagver x <> None /\ bmatch re_tagstab x <> None.
Proof. exact unguarded_patterns_total. Qed.
Print Assumptions C11_unguarded_patterns_total.

(* "a malformed annotation is ignored rather than half-applied": a failed _parse_annotations hands on no annotation at all ... *)
Theorem C11_failed_parse_is_empty : forall popt ln q column fields existing,
  po_success (parse_annotations_d popt ln q column fields existing) = false ->
  po_anns (parse_annotations_d popt ln q column fields existing) = [] /\ po_raws (parse_annotations_d popt ln q column fields existing) = [].
Proof.
  intros popt ln q column fields existing. unfold parse_annotations_d. destruct (pa_loop _ _ _ _ _ _ _) as [st|ds]; [|split; reflexivity].
  destruct (pa_level st); cbn; [discriminate|split; reflexivity].
Qed.
Print Assumptions C11_failed_parse_is_empty.

(* ... and a continuation line of a parameter whose annotations are malformed leaves that parameter's annotations (and their
   position), the annotations of the identifier and the tags exactly as they were, however many well-formed annotations stand in
   front of the malformed one on that line *)
Theorem C11_malformed_continuation_not_applied : forall cx b st k p,
  l_part st = Some PParams -> l_cur st = CurParam k -> part_get (bk_params b) k = Some p ->
  (let line := if is_empty_line (cx_line cx) then cx_line cx else rstrip (cx_line cx) in
   po_success (fst (parse_fields_d true true (cx_ln cx) (cx_orig cx) (cx_co cx) line (Some (pt_anns p, pt_apos p)))) = false) ->
  exists b' p', l_blk (step_cont cx b st) = Some b' /\ part_get (bk_params b') k = Some p'
                /\ pt_anns p' = pt_anns p /\ pt_apos p' = pt_apos p /\ bk_anns b' = bk_anns b /\ bk_tags b' = bk_tags b.
Proof.
  intros cx b st k p Hp Hc Hg Hf. cbv zeta in Hf. fold (cont_line cx) in Hf.
  set (p' := part_with p (pt_anns p) (pt_apos p) (add_line (pt_desc p) (cont_line cx)) (pt_value p)).
  (* with a description already, and when the annotations do not parse, the line is added to the description *)
  assert (E : fst (cont_part cx (cont_line cx) (bk_params b) k) = part_set (bk_params b) p').
  { unfold cont_part. rewrite Hg. destruct (truthy (pt_desc p)); [reflexivity|].
    destruct (parse_fields_d _ _ _ _ _ _ _) as [r d]. cbn [fst] in Hf. rewrite Hf. reflexivity. }
  rewrite step_cont_eq, Hp. unfold cont_cur. rewrite Hc.
  destruct (cont_part cx (cont_line cx) (bk_params b) k) as [ps ds]. cbn [fst] in E. subst ps.
  exists (blk_with b (bk_anns b) (bk_apos b) (part_set (bk_params b) p') (bk_desc b) (bk_tags b)), p'.
  split; [reflexivity|]. split; [|repeat split; reflexivity].
  pose proof (part_get_name _ _ _ Hg) as <-. exact (part_get_set _ p p' Hg).
Qed.
Print Assumptions C11_malformed_continuation_not_applied.
