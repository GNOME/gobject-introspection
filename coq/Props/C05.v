(* C05 — everything left introspectable is bindable and every reference resolves.
   Model: Model/C05.v (the introspectable pass as a computation over the reference graph of a
   namespace); tied to /repo by harness/c05.py (generated reference graphs through the real passes,
   flags compared inside Coq; and a linter that judges the clauses of the property on the GIRs of
   every generator of this development). *)
From Coq Require Import List.
From GIV.Model Require Import C05.
From GIV.Proofs Require Import C05.
Import ListNotations.

(* after the (repaired, fix 8edfc58) pass, for EVERY reference graph - any number of aliases,
   callback types and functions, references forwards and backwards, chains of any length - an
   alias or callable that is still shown introspectable refers only to fundamental types and to
   definitions that are themselves shown introspectable *)
Theorem C05_closed : forall w, closed w (pass w).
Proof. intros w. apply fixpoint_closed, pass_is_fixpoint. Qed.
Print Assumptions C05_closed.

(* the pass ends in a state that no further round of walks changes *)
Theorem C05_fixpoint : forall w, round w (pass w) = pass w.
Proof. exact pass_is_fixpoint. Qed.
Print Assumptions C05_fixpoint.

(* a walk only ever clears flags *)
Theorem C05_only_clears : forall w which fl j, nth j (walk w which fl) false = true -> nth j fl false = true.
Proof.
  intros w which fl j. unfold walk. revert fl.
  induction (seq 0 (length (nodes w))) as [|i t IH]; intros fl H; [exact H|].
  apply (step_decreasing w which fl i), IH, H.
Qed.
Print Assumptions C05_only_clears.

(* the pass as found (one alias walk, two callable walks) is not closed: two witnesses *)
Theorem C05_found_not_closed :
  ~ closed alias_chain (pass_found alias_chain) /\ ~ closed callback_chain (pass_found callback_chain).
Proof.
  split; intros C.
  - specialize (C 0%nat (NAlias (TNode 1)) eq_refl). vm_compute in C.
    specialize (C eq_refl (or_introl eq_refl)). discriminate.
  - specialize (C 0%nat (NCallable true [TNode 1]) eq_refl). vm_compute in C.
    specialize (C eq_refl (or_intror eq_refl)). discriminate.
Qed.
Print Assumptions C05_found_not_closed.
