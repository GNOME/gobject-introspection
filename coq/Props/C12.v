(* C12 — runtime GObject type data is merged faithfully into the GIR.
   Models: Model/C12.v and, for the pairing of error-quark functions with enumerations (the last statements), Model/C12Q.v;
   tied to /repo by harness/c12.py (generated worlds and dump XML through the
   real GDumpParser, MainTransformer, IntrospectablePass and GIRWriter, compared class by class,
   structure by structure and function by function inside Coq). *)
From Coq Require Import List NArith Bool String.
From GIV.Lib Require Import Str Facts.
From GIV.Model Require Import C02 C16 C12 C12Q.
From GIV.Proofs Require C16.
From GIV.Proofs Require Import C12 C12Q.
Import ListNotations.
Local Open Scope N_scope.

(* property flags: the four booleans are exactly the four low flag bits, for every flags word *)
Theorem C12_property_flags : forall p others f,
  decode_flags (encode_flags p others) = p /\ decode_flags f = decode_flags (f mod 16)
  /\ pf_readable (decode_flags f) = N.testbit f 0 /\ pf_writable (decode_flags f) = N.testbit f 1
  /\ pf_construct (decode_flags f) = N.testbit f 2 /\ pf_construct_only (decode_flags f) = N.testbit f 3.
Proof.
  intros p others f. split; [apply flags_roundtrip|]. split; [apply flags_low_bits|]. repeat split; reflexivity.
Qed.
Print Assumptions C12_property_flags.

(* the parent is the nearest ancestor that is actually known: every ancestor before it in the
   reported chain is unknown; no known ancestor at all gives no parent *)
Theorem C12_nearest_known_parent : forall k chain,
  (forall n, nearest_known k chain = Some n ->
     exists pre g post, chain = pre ++ g :: post /\ kfind k g = Some n /\ Forall (fun x => kfind k x = None) pre)
  /\ (nearest_known k chain = None <-> Forall (fun x => kfind k x = None) chain).
Proof. intros k chain. split; [intros n; apply nearest_known_spec | apply nearest_known_none]. Qed.
Print Assumptions C12_nearest_known_parent.

(* classes carry the reported type name, get-type function, flags and as many properties,
   signals and interfaces as reported, and the symbol prefix computed from the get-type function *)
Theorem C12_class_facts : forall ns k recs g gt parents ab fi ifaces props sigs c,
  merge_one ns k recs (DClass g gt parents ab fi ifaces props sigs) = Some c ->
  oc_parent c = nearest_known k parents /\ oc_gtype c = g /\ oc_get_type c = gt /\ oc_abstract c = ab /\ oc_final c = fi
  /\ oc_symbol_prefix c = symbol_prefix ns gt
  /\ List.length (oc_props c) = List.length props /\ List.length (oc_sigs c) = List.length sigs
  /\ List.length (oc_ifaces c) = List.length ifaces.
Proof.
  intros ns k recs g gt parents ab fi ifaces props sigs c [= <-]. cbn. unfold mk_props, mk_sigs.
  rewrite !map_length, !C16.isort_length, !map_length. repeat split; reflexivity.
Qed.
Print Assumptions C12_class_facts.

(* that prefix is the get-type function minus the namespace prefix and the _get_type / _get_gtype suffix *)
Theorem C12_symbol_prefix : forall ns p,
  symbol_prefix ns (ns ++ p ++ s "_get_type") = Some p /\ symbol_prefix ns (ns ++ p ++ s "_get_gtype") = Some p.
Proof.
  intros ns p. rewrite !symbol_prefix_app, strip_get_type_of_get_gtype, !strip_suffix_app. split; reflexivity.
Qed.
Print Assumptions C12_symbol_prefix.

(* every reported property keeps its flag bits, type and default *)
Theorem C12_properties_complete : forall k ps p,
  In p ps ->
  In {| op_name := dp_name p; op_flags := decode_flags (dp_flags p); op_type := resolve_gtype k (dp_type p);
        op_default := match dp_default p with Some [] => None | x => x end |} (mk_props k ps).
Proof. intros k ps p H. apply C16.isort_in. exact (in_map _ ps p H). Qed.
Print Assumptions C12_properties_complete.

Theorem C12_signals_complete : forall k ss x,
  In x ss ->
  exists o, In o (mk_sigs k ss) /\ os_name o = ds_name x
            /\ os_flags o = (ds_no_recurse x, ds_detailed x, ds_action x, ds_no_hooks x)
            /\ os_return o = resolve_gtype k (ds_return x)
            /\ map snd (os_params o) = map (resolve_gtype k) (ds_params x)
            /\ map fst (os_params o) = signal_param_names (List.length (ds_params x)).
Proof.
  intros k ss x H. eexists. split.
  - apply C16.isort_in. exact (in_map _ ss x H).
  - cbn. rewrite map_fst_combine, map_snd_combine by (rewrite map_length; apply signal_param_names_length).
    repeat split; reflexivity.
Qed.
Print Assumptions C12_signals_complete.

(* the parameters of a signal are called object, p0, p1, ... (112 is 'p'); the last two conjuncts unfold the definition *)
Theorem C12_signal_param_names : forall n,
  List.length (signal_param_names n) = n
  /\ (forall i, (i < n)%nat -> nth_error (signal_param_names n) i = Some (signal_param_name i))
  /\ signal_param_name 0 = s "object"
  /\ (forall j, signal_param_name (S j) = 112 :: dec (N.of_nat j)).
Proof.
  intro n. split; [apply signal_param_names_length|]. split; [|split; reflexivity].
  intros i Hi. unfold signal_param_names. apply map_nth_error.
  rewrite (nth_error_nth' _ 0%nat), seq_nth by (rewrite ?seq_length; exact Hi). reflexivity.
Qed.
Print Assumptions C12_signal_param_names.

(* a structure that is the type structure of some class or interface of the dump gets a back link, and the link names
   such a type *)
Theorem C12_type_struct_link : forall ns recs dump d r,
  In d dump -> owns recs d (wr_name r) = true ->
  exists d', In d' dump /\ owns recs d' (wr_name r) = true
             /\ or_struct_for (merge_record ns recs dump r) = Some (local_of (dname d')).
Proof.
  intros ns recs dump d r Hd Ho. rewrite struct_for_eq. destruct (find _ dump) as [d'|] eqn:F.
  - apply find_some in F as [Hin Hf]. exists d'. auto.
  - apply (find_none _ _ F) in Hd. congruence.
Qed.
Print Assumptions C12_type_struct_link.

Theorem C12_type_struct_names : forall recs is_class l t,
  type_struct recs is_class l = Some t ->
  existsb (fun r => str_eqb (wr_name r) t) recs = true
  /\ (if is_class then t = l ++ s "Class" else t = l ++ s "Iface" \/ t = l ++ s "Interface").
Proof.
  intros recs is_class l t. rewrite type_struct_eq. intros [Hin Hhas]%find_some. split; [exact Hhas|].
  destruct is_class; cbn in Hin.
  - destruct Hin as [<-|[]]. reflexivity.
  - destruct Hin as [<-|[<-|[]]]; auto.
Qed.
Print Assumptions C12_type_struct_names.

(* function-pointer members whose first parameter is the instance, and only those, become
   virtual methods *)
Theorem C12_virtual_methods : forall recs sn gi f r,
  find (fun r => str_eqb (wr_name r) sn) recs = Some r ->
  (In f (vfuncs recs (Some sn) gi) <-> exists first, In (f, Some first) (wr_cbs r) /\ str_eqb first gi = true).
Proof.
  intros recs sn gi f r Hr. unfold vfuncs. rewrite Hr, in_map_iff. split.
  - intros ([f' [first|]] & <- & [Hin Hc]%filter_In); [|discriminate]. exists first. auto.
  - intros (first & Hin & Hc). exists (f, Some first). split; [reflexivity|]. apply filter_In. auto.
Qed.
Print Assumptions C12_virtual_methods.

(* get-type functions disappear from the function list, nothing else does *)
Theorem C12_get_type_functions_removed : forall funcs dump f,
  In f (remaining_functions funcs dump) <-> In f funcs /\ is_get_type dump f = false.
Proof. intros funcs dump f. unfold remaining_functions. rewrite filter_In, negb_true_iff. reflexivity. Qed.
Print Assumptions C12_get_type_functions_removed.

(* an error-quark function gives its domain to the enumeration it belongs to — the one whose get-type symbol
   prefix, underscored name or name is the function's name without "_quark" — unless a later quark function
   of the same enumeration overwrites it; for every list of enumerations and quark functions *)
Theorem C12_error_domain_given : forall es pre q post j e,
  nth_error es j = Some e -> target es (q_short q) = Some j ->
  (forall q', In q' post -> target es (q_short q') <> Some j) ->
  option_map qe_domain (nth_error (fst (pair_all es (pre ++ q :: post))) j) = Some (Some (q_domain q)).
Proof.
  intros es pre q post j e He T H. destruct (error_domains es (pre ++ q :: post)) as (_ & _ & D & _).
  rewrite (D j e He), (last_domain_single es pre q post j _ T H). reflexivity.
Qed.
Print Assumptions C12_error_domain_given.

(* an enumeration that no quark function belongs to keeps what it had (none, for a scanned enumeration) *)
Theorem C12_error_domain_kept : forall es qs j e,
  nth_error es j = Some e -> (forall q, In q qs -> target es (q_short q) <> Some j) ->
  option_map qe_domain (nth_error (fst (pair_all es qs)) j) = Some (qe_domain e).
Proof.
  intros es qs j e He H. destruct (error_domains es qs) as (_ & _ & D & _).
  rewrite (D j e He), (last_domain_none es qs j _ H). reflexivity.
Qed.
Print Assumptions C12_error_domain_kept.

(* exactly the quark functions without enumeration are reported; no enumeration is renamed, added or lost *)
Theorem C12_unmatched_quarks_reported : forall es qs,
  snd (pair_all es qs) = map q_short (filter (fun q => match target es (q_short q) with None => true | Some _ => false end) qs)
  /\ map qe_name (fst (pair_all es qs)) = map qe_name es.
Proof. intros es qs. destruct (error_domains es qs) as (A & _ & _ & D). split; assumption. Qed.
Print Assumptions C12_unmatched_quarks_reported.

(* the symbol prefix of the get-type function decides before the spelling of the name *)
Theorem C12_registered_prefix_first : forall es short i,
  by_prefix es short = Some i -> target es short = Some i.
Proof. unfold target. intros es short i ->. reflexivity. Qed.
Print Assumptions C12_registered_prefix_first.

(* non-vacuity: foo_codec_2_error_quark is found through the get-type prefix, foo_web_error_quark through the
   underscored name, foo_orphan_quark has no enumeration *)
Example C12_quark_instance :
  let es := [{| qe_name := s "Codec2Error"; qe_prefix := Some (s "codec_2_error"); qe_domain := None |};
             {| qe_name := s "WebError"; qe_prefix := None; qe_domain := None |}] in
  let qs := [{| q_short := s "web_error"; q_domain := s "foo-web" |}; {| q_short := s "orphan"; q_domain := s "x" |};
             {| q_short := s "codec_2_error"; q_domain := s "foo-codec" |}] in
  map qe_domain (fst (pair_all es qs)) = [Some (s "foo-codec"); Some (s "foo-web")] /\ snd (pair_all es qs) = [s "orphan"].
Proof. vm_compute. split; reflexivity. Qed.
