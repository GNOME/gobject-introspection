(* C16 — scanner output is deterministic and independent of irrelevant order.
   Models: Model/C16.v (the places where unordered input becomes ordered output) and Model/C16G.v (the election of a
   property's getter among the methods of a class); tied to /repo by
   harness/c16.py: the real scanner pipeline in fresh processes under different hash seeds,
   comment-block orders, typedef/struct orders and cache states must give identical bytes, and the
   sibling order of the real output is checked against the model order inside Coq. *)
From Coq Require Import List NArith ZArith Bool Lia Permutation Sorting.Sorted.
From GIV.Lib Require Import Regex Str.
From GIV.Model Require Import C16 C16G.
From GIV.Proofs Require Import C16 C16G.
Import ListNotations.

(* whatever the order in which the members of a namespace (or of a class) were collected, the
   written sequence is the same: for every permutation of members with distinct (kind, name) *)
Theorem C16_members_perm_invariant : forall l l',
  Permutation l l' -> NoDup (map node_key l) -> write_members l = write_members l'.
Proof.
  intros l l' P Hnd. unfold write_members.
  rewrite (isort_perm_invariant _ _ node_leb_total node_leb_trans node_leb_antisym l l' P Hnd). reflexivity.
Qed.
Print Assumptions C16_members_perm_invariant.

(* the order of sibling elements is a fixed function of names and kinds: sorted by (alias first,
   name by code point), and nothing is lost or duplicated *)
Theorem C16_sibling_order : forall l,
  StronglySorted (fun a b => node_leb a b = true) (isort node_leb l) /\ Permutation (isort node_leb l) l.
Proof. split; [apply isort_sorted; [exact node_leb_total | exact node_leb_trans] | apply isort_perm]. Qed.
Print Assumptions C16_sibling_order.

Theorem C16_aliases_first : forall a b, n_alias a = true -> n_alias b = false -> node_leb a b = true.
Proof. intros a b Ha Hb. unfold node_leb, node_key, key_leb. rewrite Ha, Hb. reflexivity. Qed.
Print Assumptions C16_aliases_first.

(* the source position of a node does not depend on the iteration order of its position set
   (repaired tree, fix 3ae31bf) and is a definition rather than a typedef whenever there is one *)
Theorem C16_main_position_perm : forall l l',
  Permutation l l' -> NoDup (map pos_id l) -> main_position l = main_position l'.
Proof.
  intros l l' P Hnd. unfold main_position, psort.
  rewrite (isort_perm_invariant _ _ pos_leb_total pos_leb_trans pos_leb_antisym l l' P Hnd). reflexivity.
Qed.
Print Assumptions C16_main_position_perm.

Theorem C16_main_position_prefers_definition : forall l p,
  main_position l = Some p -> (exists q, In q l /\ p_typedef q = false) -> p_typedef p = false.
Proof.
  intros l p H (q & Hq & Hf). refine (main_pos_iter_prefers (psort l) q _ Hf None p H).
  exact (Permutation_in q (Permutation_sym (isort_perm pos_leb l)) Hq).
Qed.
Print Assumptions C16_main_position_prefers_definition.

(* the code as found: two iteration orders of the same set give different positions *)
Theorem C16_main_position_refuted_before_fix :
  Permutation [pA; pB] [pB; pA] /\ main_position_found [pA; pB] <> main_position_found [pB; pA].
Proof. split; [apply perm_swap | vm_compute; discriminate]. Qed.
Print Assumptions C16_main_position_refuted_before_fix.

(* comment blocks with distinct identifiers: their order (and the order of the files they came
   from) does not matter *)
Theorem C16_blocks_perm_invariant : forall (B : Type) (blocks blocks' : list (str * B)) name,
  Permutation blocks blocks' -> NoDup (map fst blocks) ->
  blocks_lookup blocks name None = blocks_lookup blocks' name None.
Proof.
  intros B blocks blocks' name P Hnd. pose proof (Permutation_map fst P) as Pk.
  destruct (in_dec (list_eq_dec N.eq_dec) name (map fst blocks)) as [I|I].
  - apply in_map_iff in I as ([n b] & <- & Hin). cbn [fst].
    rewrite (blocks_lookup_unique blocks _ b None Hnd Hin).
    rewrite (blocks_lookup_unique blocks' _ b None (Permutation_NoDup Pk Hnd) (Permutation_in _ P Hin)). reflexivity.
  - rewrite !blocks_lookup_absent; [reflexivity | | exact I].
    intros F. exact (I (Permutation_in _ (Permutation_sym Pk) F)).
Qed.
Print Assumptions C16_blocks_perm_invariant.

(* the typedef of a structure and its definition give the same record in either order: it carries the typedef's name and
   the definition's fields *)
Theorem C16_typedef_struct_order : forall name fields p1 p2,
  match trun [TTypedef name p1; TStruct fields p2], trun [TStruct fields p2; TTypedef name p1] with
  | (Some a, []), (Some b, []) => same_record a b /\ r_name a = Some name /\ r_fields a = fields
  | _, _ => False
  end.
Proof.
  intros name fields p1 p2. cbn. unfold same_record. cbn. repeat split; try reflexivity. apply perm_swap.
Qed.
Print Assumptions C16_typedef_struct_order.

(* with a forward declaration (struct _Tag; no fields) as well, standing first or last *)
Theorem C16_forward_declaration_order : forall name fields p0 p1 p2,
  match trun [TStruct [] p0; TTypedef name p1; TStruct fields p2], trun [TTypedef name p1; TStruct fields p2; TStruct [] p0] with
  | (Some a, []), (Some b, []) => same_record a b
  | _, _ => False
  end.
Proof.
  intros name fields p0 p1 p2. cbn. unfold same_record. cbn. rewrite app_nil_r. repeat split; try reflexivity.
  exact (Permutation_app_comm [p0] [p1; p2]).
Qed.
Print Assumptions C16_forward_declaration_order.

(* a second typedef of the same tag becomes a record of its own with the same fields, wherever the definition stands
   among the two typedefs *)
Theorem C16_second_typedef_order : forall a b f0 fields p1 p2 p3,
  let f := f0 :: fields in
  Forall2 same_record (tfinal (trun [TTypedef a p1; TTypedef b p2; TStruct f p3])) (tfinal (trun [TTypedef a p1; TStruct f p3; TTypedef b p2]))
  /\ Forall2 same_record (tfinal (trun [TTypedef a p1; TTypedef b p2; TStruct f p3])) (tfinal (trun [TStruct f p3; TTypedef a p1; TTypedef b p2]))
  /\ map r_fields (tfinal (trun [TTypedef a p1; TTypedef b p2; TStruct f p3])) = [f; f].
Proof.
  intros a b f0 fields p1 p2 p3. cbn. unfold same_record. cbn. repeat constructor.
Qed.
Print Assumptions C16_second_typedef_order.

(* which method becomes the getter of a property (maintransformer.py _pair_property_accessors: get_<name> 50, is_<name> 25,
   <name> 10, an annotated getter 99) does not depend on the order in which the methods were declared, hence not on the order of
   the source files: it is the candidate of the highest priority among the methods of the class *)
Theorem C16_getter_order_independent : forall cands setter l l',
  cands_ok cands -> Permutation l l' -> elect cands setter l None = elect cands setter l' None.
Proof.
  intros cands setter l l' Hok Hp. apply (best_unique cands setter l l'); try apply elect_best; try exact Hok.
  intros m. split; apply Permutation_in; [exact Hp | symmetry; exact Hp].
Qed.
Print Assumptions C16_getter_order_independent.

Theorem C16_getter_is_best : forall cands setter methods,
  cands_ok cands -> best cands setter methods (elect cands setter methods None).
Proof. exact elect_best. Qed.
Print Assumptions C16_getter_is_best.

(* the table the code builds meets the hypothesis: priorities are not negative and no two names share one *)
Theorem C16_getter_candidates_ok : forall annotated readable writable is_bool name,
  cands_ok (getter_candidates annotated readable writable is_bool name).
Proof.
  intros annotated readable writable is_bool name. unfold getter_candidates.
  (* the table is [(g, 99)], or empty, or (get_<name>, 50) followed or not by (is_<name>, 25) and by (<name>, 10): whichever,
     its priorities are literals, none negative (first goal) and no two equal (second goal, a NoDup of literals) *)
  apply cands_ok_distinct.
  - destruct annotated, readable, (is_bool && negb (startswith s_is_ name)), (negb writable && is_bool);
      repeat constructor; cbn; lia.
  - destruct annotated, readable, (is_bool && negb (startswith s_is_ name)), (negb writable && is_bool);
      repeat constructor; cbn; lia.
Qed.
Print Assumptions C16_getter_candidates_ok.

(* reading the priority of the current getter once before the loop (instead of for every candidate) makes the result depend on
   the order: the last candidate wins *)
Theorem C16_getter_read_once_refuted :
  elect_once w_cands None [s_get_ ++ w_name; s_is_ ++ w_name] None <> elect_once w_cands None [s_is_ ++ w_name; s_get_ ++ w_name] None.
Proof. vm_compute. discriminate. Qed.
Print Assumptions C16_getter_read_once_refuted.

Example C16_getter_nonvacuous :
  elect w_cands None [s_is_ ++ w_name; s_get_ ++ w_name; w_name] None = Some (s_get_ ++ w_name)
  /\ elect w_cands None [s_get_ ++ w_name; s_is_ ++ w_name] None = Some (s_get_ ++ w_name)
  /\ elect (getter_candidates None true false true w_name) None [w_name; s_is_ ++ w_name] None = Some (s_is_ ++ w_name).
Proof. exact elect_nonvacuous. Qed.
