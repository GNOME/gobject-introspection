(* C08 — record and union layout stored in typelibs equals the platform C ABI.
   Model: Model/C08.v (girepository/giroffsets.c); GI_ALIGN is translated from the macro
   text (Gen/Align.v), platform sizes come from a probe compiled against the current
   sources (Gen/Platform.v). *)
From Coq Require Import List ZArith Lia.
From GIV.Lib Require Import Facts.
From GIV.Gen Require Import Align Platform.
From GIV.Model Require Import C08.
From GIV.Proofs Require Import C08.
Import ListNotations.
Local Open Scope Z_scope.

(* the macro as written in the source rounds up to a multiple, for every power of two *)
Theorem C08_gi_align : forall n k, 0 <= k -> gi_align n (2 ^ k) = ((n + 2 ^ k - 1) / 2 ^ k) * 2 ^ k.
Proof. intros n k Hk. exact (land_lnot_pow2 _ k Hk). Qed.
Print Assumptions C08_gi_align.

(* structures: least admissible offsets, alignment = largest member alignment, size = least
   multiple of it that covers the members — for any number of members of known size *)
Theorem C08_struct_is_abi : forall ms l, all_known ms l ->
  let L := struct_layout ms in
  l_ok L = true /\ admissible 0 l (l_offsets L) /\
  (forall os2, admissible 0 l os2 -> le_list (l_offsets L) os2) /\
  l_align L = max_align 1 l /\
  l_size L mod l_align L = 0 /\ end_of 0 l (l_offsets L) <= l_size L /\
  (forall sz os2, admissible 0 l os2 -> end_of 0 l os2 <= sz -> sz mod l_align L = 0 -> l_size L <= sz).
Proof.
  intros ms l Hk. pose proof (all_known_pow2 ms l Hk) as Hl.
  pose proof (max_align_pow2 1 l pow2_1 Hl) as Hp. pose proof (pow2_pos _ Hp) as Hpos.
  pose proof (fun os2 => greedy_least l Hl 0 0 os2 (Z.le_refl 0)) as Hleast.
  unfold struct_layout. rewrite (struct_go_known ms l Hk). cbn [l_ok l_offsets l_size l_align].
  rewrite (gi_align_up _ _ Hp).
  split; [reflexivity|]. split; [apply greedy_admissible; exact Hl|].
  split; [intros os2 H2; apply Hleast, H2|].
  split; [reflexivity|]. split; [apply align_up_mult; exact Hpos|]. split; [apply align_up_ge; exact Hpos|].
  intros sz os2 H2 Hsz Hmod. apply align_up_least; [exact Hpos| |exact Hmod].
  apply Z.le_trans with (2 := Hsz), Hleast, H2.
Qed.
Print Assumptions C08_struct_is_abi.

(* members do not overlap *)
Theorem C08_no_overlap : forall l off os, Forall (fun m => 0 <= fst m) l -> admissible off l os ->
  forall i j oi oj si sj ai aj, (i < j)%nat ->
    nth_error os i = Some oi -> nth_error os j = Some oj ->
    nth_error l i = Some (si, ai) -> nth_error l j = Some (sj, aj) -> oi + si <= oj.
Proof.
  induction l as [|[s a] t IH]; intros off [|o os] Hf Hadm i j oi oj si sj ai aj Hij Hoi Hoj Hli Hlj; try contradiction.
  - destruct i; discriminate.
  - destruct Hadm as (_ & _ & H3). apply Forall_cons_iff in Hf as [Hs Hf].
    destruct j as [|j]; [lia|]. destruct i as [|i]; simpl in *.
    + (* every later offset is at least o + s *)
      injection Hoi as <-. injection Hli as <- <-. exact (admissible_ge _ _ _ _ _ Hf H3 Hoj).
    + eapply (IH _ _ Hf H3 i j); try eassumption. lia.
Qed.
Print Assumptions C08_no_overlap.

Theorem C08_union_is_abi : forall ms l, all_known ms l ->
  let L := union_layout ms in
  l_ok L = true /\ Forall (fun o => o = 0) (l_offsets L) /\
  l_align L = max_align 1 l /\ l_size L mod l_align L = 0 /\
  (forall m, In m l -> fst m <= l_size L) /\
  (forall sz, (forall m, In m l -> fst m <= sz) -> 0 <= sz -> sz mod l_align L = 0 -> l_size L <= sz).
Proof.
  intros ms l Hk. pose proof (max_align_pow2 1 l pow2_1 (all_known_pow2 ms l Hk)) as Hp.
  pose proof (pow2_pos _ Hp) as Hpos.
  unfold union_layout. rewrite (union_go_known ms l Hk). cbn [l_ok l_offsets l_size l_align].
  rewrite (gi_align_up _ _ Hp).
  split; [reflexivity|]. split; [apply Forall_flat_map, Forall_forall; intros [t|] _; repeat constructor|].
  split; [reflexivity|]. split; [apply align_up_mult; exact Hpos|]. split.
  - intros m Hin. apply Z.le_trans with (2 := align_up_ge _ _ Hpos). exact (fold_max_ge fst l 0 m Hin).
  - intros sz Hm H0 Hmod. apply align_up_least; [exact Hpos| |exact Hmod].
    apply (fold_left_lub Z.le Z.max fst Z.max_lub_iff). split; [exact H0|apply Forall_forall; exact Hm].
Qed.
Print Assumptions C08_union_is_abi.

(* nested declarations use the same computation *)
Theorem C08_nested_struct : forall ms,
  sa (TStruct ms) = let '(_, size, align, err) := struct_go ms 0 1 false in
                    if err then (-1, -1, false) else (gi_align size align, align, true).
Proof. reflexivity. Qed.
Print Assumptions C08_nested_struct.

(* a member of unknown size makes the structure unknown (never a positive wrong size), and
   that member and every later field get the unknown offset *)
Theorem C08_unknown_propagates : forall pre t post,
  snd (sa t) = false ->
  let L := struct_layout (pre ++ MField t :: post) in
  l_ok L = false /\ l_size L = -1 /\ l_align L = -1 /\
  Forall (fun o => o = -1) (skipn (length (filter (fun m => match m with MField _ => true | _ => false end) pre))
                                  (l_offsets L)).
Proof.
  intros pre t post Hu. unfold struct_layout. pose proof (struct_go_unknown_after pre t post Hu 0 1 false) as H.
  destruct (struct_go (pre ++ MField t :: post) 0 1 false) as [[[os s] a] e].
  destruct H as [-> Hf]. repeat split. exact Hf.
Qed.
Print Assumptions C08_unknown_propagates.

(* the storage chosen can represent every listed value (values within the 64-bit range the
   parser can deliver) *)
Theorem C08_enum_width_fits : forall values,
  Forall (fun v => - 2 ^ 63 <= v < 2 ^ 63) values ->
  let '(w, sg) := enum_storage values in
  (w = 1 \/ w = 2 \/ w = 4 \/ w = 8) /\
  Forall (fun v => if sg then - 2 ^ (8 * w - 1) <= v < 2 ^ (8 * w - 1) else 0 <= v < 2 ^ (8 * w)) values.
Proof.
  intros values Hr. unfold enum_storage.
  pose proof (Forall_and Hr (Forall_and (fold_zmin_le values 0) (fold_zmax_ge values 0))) as Hv.
  set (maxv := fold_left (fun m v => if m <? v then v else m) values 0) in *.
  set (minv := fold_left (fun m v => if v <? m then v else m) values 0) in *.
  unfold enum1_width, enum2_width, enum3_width, enum4_width, enum5_width, enum6_width, enum7_width,
         enum8_width, enum9_width, enum1_signed, enum2_signed, enum3_signed, enum4_signed, enum5_signed,
         enum6_signed, c_minshort, c_maxshort, c_maxushort, c_maxint.
  (* one goal per leaf of the decision tree, with the tests passed on the way: they bound minv and maxv, and so every
     value, by the range of the width chosen there; the last leaf of either branch has the 64-bit range to go by *)
  repeat match goal with
         | |- context [if ?c then _ else _] => destruct c eqn:?
         end.
  all: split; [auto|].
  all: revert Hv; apply Forall_impl; intros v (Hr64 & Hmin & Hmax).
  (* lia reads the tests passed on the way from the context, as (a <? b) = true and the like *)
  all: cbn; lia.
Qed.
Print Assumptions C08_enum_width_fits.

(* non-vacuity: { gint8; gint32; gint16; gdouble; gint8 } *)
Example C08_nonvacuous :
  let ms := [MField (TScalar 1 1); MField (TScalar 4 4); MField (TScalar 2 2); MField (TScalar 8 8); MField (TScalar 1 1)] in
  struct_layout ms = {| l_offsets := [0; 4; 8; 16; 24]; l_size := 32; l_align := 8; l_ok := true |}.
Proof. vm_compute. reflexivity. Qed.
