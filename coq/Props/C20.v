(* C20 — the XML writer always produces well-formed, lossless XML.
   Model: Model/C20.v (giscanner/xmlwriter.py + saxutils.escape/quoteattr, byte-exact);
   reader side: Model/C20Spec.v (references, attribute lists) and Model/C20D.v (whole documents).
   Proofs: Proofs/C20.v, Proofs/C20D.v. *)
From Coq Require Import List ZArith.
From GIV.Model Require Import C20 C20Spec C20D.
From GIV.Proofs Require Import C20 C20D.
Import ListNotations.
Local Open Scope N_scope.

(* text: escaping is inverted by reference decoding and leaves no markup character *)
Theorem C20_escape_inverse : forall s, unescape (escape s) = Some s.
Proof. exact unescape_escape. Qed.
Print Assumptions C20_escape_inverse.

Theorem C20_escape_no_markup : forall s, ~ In 60 (escape s) /\ ~ In 62 (escape s).
Proof. exact escape_no_markup. Qed.
Print Assumptions C20_escape_no_markup.

(* attribute values: quoted with a quote character that does not occur inside, no '<',
   no literal newline/CR/tab (so attribute-value normalisation cannot alter them), and
   decoding gives back the value *)
Theorem C20_quoteattr_inverse : forall v, exists q body,
  quoteattr v = q :: body ++ [q] /\ (q = 34 \/ q = 39) /\ ~ In q body /\ ~ In 60 body /\
  ~ In 10 body /\ ~ In 13 body /\ ~ In 9 body /\ unescape body = Some v.
Proof. exact quoteattr_shape. Qed.
Print Assumptions C20_quoteattr_inverse.

(* attribute lists: for every tag name, indentation and wrap decision (any line length),
   scanning the emitted text gives exactly the attributes that have a value, in order,
   with their exact values; valueless attributes are omitted *)
Theorem C20_attributes_roundtrip : forall tag attrs self_indent ichar indent,
  names_ok attrs -> forallb xml_ws ichar = true ->
  parse_attrs (collect_attributes tag attrs self_indent ichar indent) = Some (present attrs).
Proof. exact parse_collect. Qed.
Print Assumptions C20_attributes_roundtrip.

(* programs: whatever nesting of `with tagcontext` blocks, and wherever the body raises,
   the document is the rendering of an event list in which every opened element is
   closed in order *)
Theorem C20_balanced_on_abort : forall l, forallb ctx_only l = true ->
  let '(out, r) := run_program l in let '(evs, r') := events_list l in
  r = r' /\ out = xml_decl ++ fst (render 0 evs) /\ check evs [] = Some [].
Proof.
  intros l Hc. unfold run_program. rewrite (proj2 (proj2 cut_both l Hc)).
  destruct (proj2 events_cut_both l Hc) as (Hr & Hrn & Hck). destruct (events_list l) as [evs r'].
  cbn [fst snd w_out appended w_init w_indent] in *. rewrite Hrn.
  split; [symmetry; exact Hr|]. split; [reflexivity|apply Hck].
Qed.
Print Assumptions C20_balanced_on_abort.

(* non-vacuity: a nested program that aborts inside two open contexts *)
Example C20_nonvacuous :
  let p := [SCtx [97] [([120], Some [34;60]); ([121], None)]
              [SLeaf [98] [] (Some [38]); SCtx [99] [] [SRaise; SLeaf [100] [] None]]] in
  forallb ctx_only p = true /\ snd (run_program p) = true /\
  check (fst (events_list p)) [] = Some [] /\ length (fst (events_list p)) = 5%nat.
Proof. vm_compute. repeat split. Qed.

(* whole documents: for EVERY program of leaf elements, comments and `with tagcontext` blocks of any
   depth - element and attribute names being names (no blank, quote, '=', '<', '>', '/'; an element name
   not beginning with '!' or '?'), comment text free of the end mark "-->", attribute values and
   element text ARBITRARY strings - the reader of Model/C20D.v, written from XML 1.0, accepts the
   bytes the writer returns and reports exactly the elements in order and nesting, exactly the
   attributes that have a value with their exact values, exactly the text, and the writer's own
   line breaks and indentation as the character data they are (layout_doc states where). *)
Theorem C20_document_roundtrip : forall l, forallb pure l = true -> Forall wf l ->
  xml_parse (fst (run_program l)) = Some (layout_doc l).
Proof. exact document_roundtrip. Qed.
Print Assumptions C20_document_roundtrip.

(* the same with the reader's usual view, text made of blanks only being dropped: what comes back
   is the document the program describes (doc_of), nothing added and nothing lost - provided no
   element text consists of blanks only (such text cannot be told from indentation) *)
Theorem C20_document_meaning : forall l,
  forallb pure l = true -> Forall wf l -> forallb data_ok l = true ->
  exists d, xml_parse (fst (run_program l)) = Some d /\
            strip_all d = NPI decl_body :: flat_map doc_of l.
Proof. exact document_meaning. Qed.
Print Assumptions C20_document_meaning.

(* the hypothesis on comments follows from the plain statement "the text does not contain -->" *)
Theorem C20_comment_padding : forall x, no_cend x -> no_cend (32 :: x ++ [32]).
Proof.
  intros x H p q E. destruct p as [|c p]; [discriminate E|]. simpl in E. injection E as _ E.
  (* q is empty or ends in some z: the end mark cannot end at the final blank, and one that ends earlier lies in x *)
  induction q as [|z q _] using rev_ind.
  - change [45;45;62] with ([45;45] ++ [62]) in E. rewrite app_assoc in E. apply app_inj_tail in E as [_ E]. discriminate.
  - apply (H p q), (app_inj_tail _ _ 32 z). rewrite E, <- !app_assoc. reflexivity.
Qed.
Print Assumptions C20_comment_padding.

(* non-vacuity: a nested program with markup characters in values and text, a valueless attribute,
   a comment and an empty block satisfies the hypotheses, and its document has five elements *)
Example C20_document_nonvacuous :
  let p := [SCtx [97] [([120], Some [34;60;39;38;10]); ([121], None)]
              [SLeaf [98] [] (Some [38;60;62]); SComment [104;45;45;105];
               SCtx [99] [] [SLeaf [100] [([101], Some [49])] None]; SCtx [102] [] []]] in
  forallb pure p = true /\ Forall wf p /\ forallb data_ok p = true /\
  xml_parse (fst (run_program p)) = Some (layout_doc p) /\
  flat_map doc_of p =
    [NElem [97] [([120], [34;60;39;38;10])]
       [NElem [98] [] [NText [38;60;62]]; NComment [32;104;45;45;105;32];
        NElem [99] [] [NElem [100] [([101], [49])] []]; NElem [102] [] []]].
Proof.
  cbv zeta. split; [reflexivity|]. split.
  - repeat first [apply has_cend_false; reflexivity | split | discriminate | reflexivity | constructor].
  - split; [reflexivity|]. split; [vm_compute; reflexivity|reflexivity].
Qed.

(* ... and when the writing code raises: the document is the one of the program cut at the first raise (every block entered so
   far closed by the `finally` of tagcontext), so it is still accepted by the reader and reports exactly what had been written *)
Theorem C20_document_roundtrip_abort : forall l, forallb ctx_only l = true -> Forall wf l ->
  xml_parse (fst (run_program l)) = Some (layout_doc (fst (cutl l))) /\ snd (run_program l) = snd (cutl l).
Proof.
  intros l Hc Hw. destruct (proj2 cut_both l Hc) as [Hp He].
  pose proof (document_roundtrip _ Hp (proj2 wf_cut_both l Hw)) as Hd. rewrite run_program_pure in Hd by exact Hp.
  unfold run_program. rewrite He. split; [exact Hd|reflexivity].
Qed.
Print Assumptions C20_document_roundtrip_abort.

Example C20_abort_nonvacuous :
  let p := [SCtx [97] [([120], Some [34;60])]
              [SLeaf [98] [] (Some [38]); SCtx [99] [] [SLeaf [100] [] None; SRaise; SLeaf [101] [] None]; SLeaf [102] [] None]] in
  forallb ctx_only p = true /\ snd (run_program p) = true /\
  fst (cutl p) = [SCtx [97] [([120], Some [34;60])] [SLeaf [98] [] (Some [38]); SCtx [99] [] [SLeaf [100] [] None]]] /\
  xml_parse (fst (run_program p)) = Some (layout_doc (fst (cutl p))).
Proof. cbv zeta. repeat split; vm_compute; reflexivity. Qed.

(* lossless: two programs that make the writer return the same bytes describe the same document *)
Theorem C20_lossless : forall l1 l2,
  forallb pure l1 = true -> Forall wf l1 -> forallb data_ok l1 = true ->
  forallb pure l2 = true -> Forall wf l2 -> forallb data_ok l2 = true ->
  fst (run_program l1) = fst (run_program l2) -> flat_map doc_of l1 = flat_map doc_of l2.
Proof.
  intros l1 l2 P1 W1 D1 P2 W2 D2 E.
  destruct (document_meaning l1 P1 W1 D1) as (d1 & Hp1 & Hs1).
  destruct (document_meaning l2 P2 W2 D2) as (d2 & Hp2 & Hs2).
  rewrite E, Hp2 in Hp1. injection Hp1 as <-. rewrite Hs1 in Hs2. injection Hs2 as H. exact H.
Qed.
Print Assumptions C20_lossless.
