(* C01 — parameter and return annotations are reflected exactly in the GIR.
   Model: Model/C01.v (annotation application per callable, pass 3, emission in Model/C01Spec.v);
   tied to /repo by harness/c01.py (the real comment parser, transformer passes and writer on
   generated callables, compared attribute by attribute and warning by warning inside Coq). *)
From Coq Require Import List Bool String Lia.
From GIV.Lib Require Import Str Facts.
From GIV.Model Require Import C02 C01 C01Spec.
From GIV.Proofs Require Import C01.
Import ListNotations.

(* ownership transfer: a valid annotation is stored with the documented value (floating meaning
   none) and reports nothing; an invalid one is reported and changes nothing; validity is the
   documented rule *)
Theorem C01_transfer : forall sl a t,
  opt1 a "transfer" = Some t ->
  (transfer_valid sl a t = true -> forall v, transfer_value t = Some v ->
     sl_transfer (fst (apply_transfer sl a)) = Some v /\ snd (apply_transfer sl a) = [])
  /\ (transfer_valid sl a t = false -> apply_transfer sl a = (sl, [WTransfer]))
  /\ transfer_value (s "floating") = Some TNone
  /\ transfer_valid sl a t =
     (if str_eqb t (s "floating") then
        is_classish (sl_kind sl)
        || match kind_giname (sl_kind sl) with
           | Some g => str_eqb g (s "GLib.Variant") || str_eqb g (s "GObject.Closure") | None => false end
      else if str_eqb t (s "container") then has a "array" || is_container (sl_kind sl)
      else is_pointer_type sl || is_fund (sl_kind sl) "utf8" || is_fund (sl_kind sl) "filename"
           || is_container (sl_kind sl) || is_compoundish (sl_kind sl)).
Proof.
  intros sl a t H. unfold apply_transfer. rewrite H. split; [|split; [|split; reflexivity]].
  - intros Hv v Ht. rewrite Hv, Ht. split; reflexivity.
  - intros Hv. rewrite Hv. reflexivity.
Qed.
Print Assumptions C01_transfer.

(* direction and caller-allocation, on [after_direction] (Proofs/C01.v) *)
Theorem C01_direction : forall sl a d ca,
  annotated_direction sl a = Some (d, ca) ->
  sl_direction (after_direction sl a) = d
  /\ (sl_direction sl <> d -> sl_caller_allocates (after_direction sl a) = ca
                              /\ (sl_is_return sl = false -> sl_transfer (after_direction sl a) = Some (param_transfer d ca))).
Proof.
  intros sl a d ca H. unfold after_direction. rewrite H.
  destruct (dir_eqb d (sl_direction sl)) eqn:E.
  - apply dir_eqb_eq in E. split; [symmetry; exact E|]. congruence.
  - split; [reflexivity|]. intros _. split; [reflexivity|]. intros R. cbn. rewrite R. reflexivity.
Qed.
Print Assumptions C01_direction.

(* nullable / optional / allow-none: valid => set and silent; invalid => reported, and every
   flag of the value is what it would have been had the annotation not been written *)
Theorem C01_nullable : forall fx sl a,
  has a "nullable" = true ->
  (is_pointer_type sl = true -> has a "not" = false ->
     sl_nullable (fst (common_flags fx sl a)) = true /\ sl_not_nullable (fst (common_flags fx sl a)) = false
     /\ ~ In WNullable (snd (common_flags fx sl a)))
  /\ (is_pointer_type sl = false ->
      In WNullable (snd (common_flags fx sl a))
      /\ fst (common_flags fx sl a) = fst (common_flags fx sl (drop "nullable" a))).
Proof.
  intros fx sl a H. split.
  - intros Hp Hn. rewrite common_flags_eq, flags_of_warned, H, Hp, Hn.
    cbn [flags_of fst with_null sl_nullable sl_not_nullable In].
    (* with [is_pointer_type sl] true the remaining conditionals have the same value in every branch; each of the three
       warnings has a condition that fails *)
    rewrite Hp, !if_same. repeat split. intuition discriminate.
  - intros Hp. split; [rewrite common_flags_eq; apply flags_of_warned; left; cbn; auto|].
    (* both sides as [flags_of] of what they read, which differs in "nullable" alone; there the invalid site takes the
       branches of the absent annotation *)
    rewrite !common_flags_eq, has_drop_same, !has_drop_other, !has_opt_drop_other, attr_pairs_drop_other by reflexivity.
    rewrite H. unfold flags_of. rewrite Hp. reflexivity.
Qed.
Print Assumptions C01_nullable.

Theorem C01_optional : forall fx sl a,
  has a "optional" = true ->
  (sl_is_return sl = false -> out_dir (sl_direction sl) = true -> has a "not" = false ->
     sl_optional (fst (common_flags fx sl a)) = true /\ ~ In WOptional (snd (common_flags fx sl a)))
  /\ (negb (sl_is_return sl) && out_dir (sl_direction sl) = false ->
      In WOptional (snd (common_flags fx sl a))
      /\ fst (common_flags fx sl a) = fst (common_flags fx sl (drop "optional" a))).
Proof.
  intros fx sl a H. split.
  - intros H1 H2 H3. rewrite common_flags_eq, flags_of_warned, H, H1, H2, H3. cbn [flags_of fst with_null sl_optional In].
    rewrite H1, H2. cbn [negb andb]. rewrite !if_same.
    split; [reflexivity|]. intuition discriminate.
  - intros H1. split; [rewrite common_flags_eq; apply flags_of_warned; right; left; cbn; auto|].
    rewrite !common_flags_eq, has_drop_same, !has_drop_other, !has_opt_drop_other, attr_pairs_drop_other by reflexivity.
    rewrite H. unfold flags_of. rewrite H1. reflexivity.
Qed.
Print Assumptions C01_optional.

Theorem C01_allow_none_invalid : forall fx sl a,
  has a "allow-none" = true -> dir_eqb (sl_direction sl) DOut && negb (sl_is_return sl) = false -> is_pointer_type sl = false ->
  In WAllowNone (snd (common_flags fx sl a))
  /\ fst (common_flags fx sl a) = fst (common_flags fx sl (drop "allow-none" a)).
Proof.
  intros fx sl a H1 H2 H3. split; [rewrite common_flags_eq; apply flags_of_warned; right; right; cbn; auto|].
  rewrite !common_flags_eq, has_drop_same, !has_drop_other, !has_opt_drop_other, attr_pairs_drop_other by reflexivity.
  rewrite H1. unfold flags_of. rewrite H2, H3. reflexivity.
Qed.
Print Assumptions C01_allow_none_invalid.

(* (not nullable) / (not optional) override, each its own attribute (repaired tree) *)
Theorem C01_not_overrides : forall sl a,
  (has_opt a "not" "nullable" = true ->
     sl_nullable (fst (common_flags true sl a)) = false /\ sl_not_nullable (fst (common_flags true sl a)) = true)
  /\ (has_opt a "not" "optional" = true -> sl_optional (fst (common_flags true sl a)) = false)
  /\ (has_opt a "not" "nullable" = false ->
      sl_nullable (fst (common_flags true sl a)) = sl_nullable (fst (common_flags true sl (drop "not" a)))
      /\ sl_not_nullable (fst (common_flags true sl a)) = sl_not_nullable (fst (common_flags true sl (drop "not" a)))).
Proof.
  intros sl a. rewrite !common_flags_eq. cbn. split; [|split]; intros H.
  - rewrite (has_opt_has _ _ _ H), H. split; reflexivity.
  - rewrite (has_opt_has _ _ _ H), H. reflexivity.
  - rewrite has_drop_same, !has_drop_other, H by reflexivity. destruct (has a "not"); split; reflexivity.
Qed.
Print Assumptions C01_not_overrides.

(* ... which was false before the repair (fix: da7007c): witness *)
Theorem C01_not_optional_refuted_before_fix :
  exists sl a, has_opt a "not" "optional" = true /\ has_opt a "not" "nullable" = false
               /\ sl_optional (fst (common_flags false sl a)) = true
               /\ has a "nullable" = true /\ is_pointer_type sl = true /\ sl_nullable (fst (common_flags false sl a)) = false.
Proof.
  exists out_ptr_slot, [(s "optional", []); (s "nullable", []); (s "not", [(s "optional", None)])].
  vm_compute. repeat split; reflexivity.
Qed.
Print Assumptions C01_not_optional_refuted_before_fix.

(* attributes: every key=value pair of the annotation with a non-empty value ends up in the list,
   unless a later pair of the same annotation has the same key *)
Theorem C01_skip_and_attributes : forall fx sl a,
  (has a "skip" = true -> sl_skip (fst (common_flags fx sl a)) = true)
  /\ (forall pre k v post, attr_pairs a = pre ++ (k, v) :: post -> Forall (fun kv => str_eqb k (fst kv) = false) post ->
        In (k, v) (sl_attrs (fst (common_flags fx sl a)))).
Proof.
  intros fx sl a. split; rewrite common_flags_eq; cbn.
  - intros H. rewrite H. apply orb_true_r.
  - (* the pair is in the list once it has been set, and the later pairs, having other keys, keep it *)
    intros pre k v post H Hp. rewrite H, fold_left_app. cbn [fold_left fst snd].
    rewrite Forall_forall in Hp. apply fold_left_invariant; [|apply set_attr_in].
    intros l x Hx. apply set_attr_keeps, Hp, Hx.
Qed.
Print Assumptions C01_skip_and_attributes.

(* arrays: the options of (array) are stored as written and emitted as documented *)
Theorem C01_array : forall e sl a aopts,
  ann_get a (s "array") = Some aopts ->
  exists t el,
    sl_kind (fst (fst (adjust_container e sl a)))
    = KdArray t el
        (match opt_val aopts (s "zero-terminated") with None => false | Some None => true | Some (Some v) => negb (str_eqb v (s "0")) end)
        (match opt_val aopts (s "fixed-size") with Some (Some n) => Some n | _ => None end)
        (match opt_val aopts (s "length") with Some (Some n) => Some n | _ => None end)
    /\ snd (adjust_container e sl a) = match opt_val aopts (s "length") with Some (Some n) => Some n | _ => None end.
Proof.
  intros e sl a aopts H. unfold adjust_container. rewrite H.
  (* the element type and its warnings, whatever (element-type) gives *)
  destruct (match ann_get a (s "element-type") with Some _ => _ | None => _ end) as [elem w].
  eexists _, _. split; reflexivity.
Qed.
Print Assumptions C01_array.

Theorem C01_array_emission : forall ps sl t el z f l,
  sl_kind sl = KdArray t el z f l ->
  b_array (emit ps sl) = true /\ b_fixed (emit ps sl) = f
  /\ b_length (emit ps sl) = match l with Some n => slot_index ps n | None => None end
  /\ b_zero (emit ps sl) = (if negb z then Some false else match f, l with None, None => None | _, _ => Some true end).
Proof. intros ps sl t el z f l H. unfold emit. rewrite H. repeat split; reflexivity. Qed.
Print Assumptions C01_array_emission.

(* the parameter named by length= follows the direction of the array (and is transfer full when
   that is out), for every state of the callable in which the array's annotations are applied *)
Theorem C01_length_follows : forall fx e cb ps ws i a ps' ws' aopts n arr lp,
  step_param fx e cb (ps, ws) (i, a) = (ps', ws') ->
  nth_error ps i = Some arr ->
  ann_get a (s "array") = Some aopts -> opt_val aopts (s "length") = Some (Some n) ->
  first_named n ps' = Some lp ->
  exists arr', nth_error ps' i = Some arr' /\ sl_direction lp = sl_direction arr'
               /\ (sl_direction arr' = DOut -> sl_transfer lp = Some TFull).
Proof.
  intros fx e cb ps ws i a ps' ws' aopts n arr lp Hstep Harr H1 H2 Hlp.
  unfold step_param in Hstep. rewrite Harr in Hstep.
  (* [ps1]: the slots after the closure or callback annotations, as the callable is a callback type or not; they change
     slots in place *)
  destruct (if cb then _ else _) as [ps1 w1] eqn:E1 in Hstep.
  assert (L : List.length ps1 = List.length ps).
  { destruct cb; [destruct (apply_closure arr a) | destruct (apply_callback _ arr a) as [[sl1 w] [n0|]]];
      injection E1 as <- _; rewrite ?length_on_named; apply length_set_nth. }
  assert (Hi : (i < List.length ps1)%nat) by (rewrite L; apply nth_error_Some; congruence).
  destruct (nth_error ps1 i) as [sl1|] eqn:E2; [|apply nth_error_None in E2; lia].
  pose proof (apply_common_length fx e sl1 a aopts n H1 H2) as Hn.
  destruct (apply_common fx e sl1 a) as [[sl2 w2] lside]. cbn [snd] in Hn. subst lside.
  injection Hstep as <- _.
  apply length_param_follows; [apply nth_error_set_nth; exact Hi | exact Hlp].
Qed.
Print Assumptions C01_length_follows.

(* emitted closure / destroy / length indices are in range and name the annotated parameter *)
Theorem C01_indices_in_range : forall ps sl,
  (forall i, b_closure (emit ps sl) = Some i ->
             (i < List.length ps)%nat /\ exists p n, sl_closure sl = Some n /\ nth_error ps i = Some p /\ sl_name p = n)
  /\ (forall i, b_destroy (emit ps sl) = Some i ->
                (i < List.length ps)%nat /\ exists p n, sl_destroy sl = Some n /\ nth_error ps i = Some p /\ sl_name p = n)
  /\ (forall i, b_length (emit ps sl) = Some i ->
                (i < List.length ps)%nat /\ exists p, nth_error ps i = Some p
                  /\ exists t el z f, sl_kind sl = KdArray t el z f (Some (sl_name p))).
Proof.
  intros ps sl. rewrite emit_eq. cbn [b_closure b_destroy b_length].
  split; [apply named_index_spec | split; [apply named_index_spec|]].
  intros i H. destruct (sl_kind sl) as [| | | |t el z f [n|]|]; try discriminate.
  apply slot_index_spec in H as (Hl & p & Hp & <- & _). eauto 8.
Qed.
Print Assumptions C01_indices_in_range.

(* scope / closure / destroy: on a non-callback they are reported and inert; on a callback they
   are recorded as written (destroy implying scope notified) *)
Theorem C01_callback_annotations : forall anyn sl a,
  (is_callback_kind (sl_kind sl) = false ->
     fst (fst (apply_callback anyn sl a)) = sl /\ snd (apply_callback anyn sl a) = None
     /\ (has a "scope" = true -> In WScope (snd (fst (apply_callback anyn sl a))))
     /\ (has a "destroy" = true -> In WDestroy (snd (fst (apply_callback anyn sl a))))
     /\ (has a "closure" = true -> In WClosure (snd (fst (apply_callback anyn sl a)))))
  /\ (is_callback_kind (sl_kind sl) = true ->
      let r := fst (fst (apply_callback anyn sl a)) in
      (forall x, opt1 a "scope" = Some x -> opt1 a "destroy" = None -> sl_scope r = Some x)
      /\ (forall n, opt1 a "destroy" = Some n -> sl_destroy r = Some n /\ sl_scope r = Some (s "notified")
                                                /\ snd (apply_callback anyn sl a) = Some n)
      /\ (forall n, opt1 a "closure" = Some n -> sl_closure r = Some n
                                                /\ (is_in n anyn = true -> ~ In WClosure (snd (fst (apply_callback anyn sl a))))
                                                /\ (is_in n anyn = false -> In WClosure (snd (fst (apply_callback anyn sl a)))))).
Proof.
  intros anyn sl a. unfold apply_callback. split; intros H; rewrite H; cbn [negb fst snd].
  - repeat split; intros G; rewrite G; auto using in_or_app, in_eq.
  - split; [|split].
    + intros x Hs Hd. rewrite Hs, Hd. destruct (opt1 a "closure"); reflexivity.
    + intros n Hd. rewrite Hd. destruct (opt1 a "closure"); repeat split; reflexivity.
    + intros n Hc. rewrite Hc. destruct (opt1 a "destroy"); (split; [reflexivity|]); split; intros G; rewrite G; cbn; auto.
Qed.
Print Assumptions C01_callback_annotations.

(* The full statement "a valid scope/closure annotation reaches the GIR" is FALSE of the faithful
   model of the whole callable, and "an invalid closure annotation is inert" is false too: the
   witnesses below are the recorded findings C01-K1, C01-K2, C01-K4 (known-findings.json). *)
Theorem C01_explicit_closure_overridden_refuted :
  exists ds, let r := run_callable true env_cb false ds CVoid None in
             exists cb, nth_error (r_params r) 0 = Some cb
                        /\ opt1 (ann_of (d_ann (nth 0 ds (decl_of "" CVoid None)))) "closure" = Some (s "ctx")
                        /\ r_warn r = []
                        /\ b_closure (emit (r_params r) cb) = Some 2%nat
                        /\ slot_index (r_params r) (s "ctx") = Some 1%nat.
Proof.
  exists [decl_of "cb" (CTypedef (s "FooCb") false) (Some [(s "closure", [(s "ctx", None)])]);
          decl_of "ctx" (CTypedef (s "gpointer") false) None;
          decl_of "user_data" (CTypedef (s "gpointer") false) None].
  vm_compute. eexists. repeat split; reflexivity.
Qed.
Print Assumptions C01_explicit_closure_overridden_refuted.

Theorem C01_explicit_scope_overridden_refuted :
  exists ds, let r := run_callable true env_cb false ds CVoid None in
             exists cb, nth_error (r_params r) 0 = Some cb
                        /\ opt1 (ann_of (d_ann (nth 0 ds (decl_of "" CVoid None)))) "scope" = Some (s "call")
                        /\ r_warn r = []
                        /\ b_scope (emit (r_params r) cb) = Some (s "notified").
Proof.
  exists [decl_of "cb" (CTypedef (s "FooCb") false) (Some [(s "scope", [(s "call", None)])]);
          decl_of "user_data" (CTypedef (s "gpointer") false) None;
          decl_of "notify" (CTypedef (s "GDestroyNotify") false) None].
  vm_compute. eexists. repeat split; reflexivity.
Qed.
Print Assumptions C01_explicit_scope_overridden_refuted.

Theorem C01_invalid_closure_kept_refuted :
  exists sl a, In WClosure (snd (apply_closure sl a)) /\ sl_closure (fst (apply_closure sl a)) <> sl_closure sl.
Proof. exists out_ptr_slot, [(s "closure", [])]. vm_compute. split; [left; reflexivity | discriminate]. Qed.
Print Assumptions C01_invalid_closure_kept_refuted.
