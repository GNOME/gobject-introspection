(* C17 — requiring a namespace loads the right typelib version and its dependencies.
   Model: Model/C17.v (girepository/girepository.c: parse_version, compare_version,
   find_namespace_version, enumerate_namespace_versions, find_namespace_latest,
   require_internal, register_internal, load_dependencies_recurse). *)
From Coq Require Import List ZArith Lia.
From GIV.Lib Require Import Str.
From GIV.Model Require Import C17.
From GIV.Proofs Require Import C17.
Import ListNotations.
Local Open Scope Z_scope.

(* explicit version: the search returns the file of that name in the first search-path directory
   that has one; it finds none only when no directory has one *)
Theorem C17_first_directory : forall fsys name path,
  match find_version fsys path name with
  | Some (d, c) => exists pre post dd, path = pre ++ d :: post /\ (forall x, In x pre -> ~ has_file fsys x name) /\
                                      lookup_dir fsys d = Some dd /\ lookup_file dd name = Some c
  | None => forall x, In x path -> ~ has_file fsys x name
  end.
Proof.
  intros fsys name. induction path as [|d t IH]; [intros x []|].
  destruct (find_version_cons fsys d t name) as [(dd & c & Hd & Hf & ->)|[Hno ->]].
  - exists [], t, dd. repeat split; auto.
  - destruct (find_version fsys t name) as [[d' c']|].
    + destruct IH as (pre & post & dd' & -> & Hpre & Hd & Hf). exists (d :: pre), post, dd'. repeat split; auto.
      intros x [<-|Hx]; auto.
    + intros x [<-|Hx]; auto.
Qed.
Print Assumptions C17_first_directory.

(* ... and a namespace not yet loaded is then taken from <ns>-<ver>.typelib as found by that search: not-found
   if there is none or it cannot be loaded, refused when its header names another namespace or version *)
Theorem C17_exact : forall fsys gpath f st path ns v,
  get_registered st ns = None ->
  require fsys gpath (S f) st path ns (Some v) =
  match find_version fsys path (fname ns v) with
  | None => (st, RErr 0)
  | Some (_, None) => (st, RErr 0)
  | Some (d, Some tf) =>
      if negb (str_eqb tf.(f_ns) ns) then (st, RErr 1)
      else if negb (str_eqb tf.(f_version) v) then (st, RErr 1)
      else register fsys gpath f st tf (slash_join d (fname ns v))
  end.
Proof.
  intros fsys gpath f st path ns v H. simpl. rewrite H.
  destruct (find_version fsys path (fname ns v)) as [[d [tf|]]|]; reflexivity.
Qed.
Print Assumptions C17_exact.

(* no version: the elected candidate is one of the candidates and none has a higher numeric
   (major, minor) version, nor an equal one from an earlier directory *)
Theorem C17_latest : forall l c, elect l = Some c ->
  In c l /\ forall x, In x l -> ~ better (ckey x) (ckey c).
Proof. exact elect_spec. Qed.
Print Assumptions C17_latest.

(* the comparison is antisymmetric: exchanging the two versions negates the result *)
Theorem C17_version_order : forall a b, compare_version a b = - compare_version b a.
Proof.
  intros [a1 a2] [b1 b2]. destruct (compare_version_spec a1 a2 b1 b2), (compare_version_spec b1 b2 a1 a2); lia.
Qed.
Print Assumptions C17_version_order.

(* search path: a prepended directory goes in front of those prepended earlier (what is searched is
   pre ++ base); the loaded namespaces stay as they are *)
Theorem C17_prepend_precedence : forall fsys base pre st d,
  fst (step fsys base (pre, st) (OPrepend d)) = (d :: pre, st).
Proof. reflexivity. Qed.
Print Assumptions C17_prepend_precedence.

(* re-requiring a loaded namespace: the same version is returned, another version is a conflict, nothing changes *)
Theorem C17_already_loaded : forall fsys gpath st path ns ver l,
  get_registered st ns = Some l ->
  require fsys gpath fuel0 st path ns ver =
  match ver with
  | None => (st, ROk l.(l_file).(f_version))
  | Some v => if str_eqb v l.(l_file).(f_version) then (st, ROk v) else (st, RErr 2)
  end.
Proof.
  (* the fuel is made a variable first: [simpl] would unfold all its 64 levels *)
  intros fsys gpath st path ns ver l H. change fuel0 with (S 63). generalize 63%nat. intro f.
  simpl. rewrite H. reflexivity.
Qed.
Print Assumptions C17_already_loaded.

(* for every history of prepend / require / private-require calls over an acyclic set of
   files: every loaded namespace comes from a file naming it, and every dependency that file
   records is loaded at the recorded version *)
Theorem C17_invariant : forall fsys base rank, fs_ranked fsys rank ->
  forall ops w, Inv (snd w) -> Forall op_plain ops -> Inv (snd (fst (run fsys base w ops))).
Proof.
  intros fsys base rank Hfs. induction ops as [|o t IH]; intros w Hinv Hp; cbn [run]; [exact Hinv|].
  apply Forall_cons_iff in Hp as [Ho Ht].
  pose proof (step_inv fsys base rank Hfs w o Hinv Ho) as H1.
  destruct (step fsys base w o) as [w' r]. cbn [fst snd] in H1.
  specialize (IH w' H1 Ht). destruct (run fsys base w' t) as [w'' rs]. exact IH.
Qed.
Print Assumptions C17_invariant.

(* a successful require leaves the namespace loaded at the version reported, which is the
   requested one when a version was given; everything loaded before stays loaded *)
Theorem C17_require_result : forall fsys gpath rank, fs_ranked fsys rank ->
  forall st path ns ver st' v, Inv st ->
    require fsys gpath fuel0 st path ns ver = (st', ROk v) ->
    (exists added, st' = st ++ added) /\
    (exists l, get_registered st' ns = Some l /\ l.(l_file).(f_version) = v) /\
    (forall v0, ver = Some v0 -> v = v0).
Proof.
  intros fsys gpath rank Hfs st path ns ver st' v Hinv H.
  destruct (require_inv fsys gpath rank Hfs fuel0 st path ns ver Hinv) as [(a & Ha & _) Hok].
  rewrite H in Ha, Hok. destruct (Hok v eq_refl) as [Hv0 Hl]. split; [exists a; exact Ha|]. split; [exact Hl|exact Hv0].
Qed.
Print Assumptions C17_require_result.

(* 1.10 is later than 1.9; a two-directory election *)
Example C17_numeric_order :
  compare_version (pv [49;46;49;48]%N) (pv [49;46;57]%N) = 1.
Proof. vm_compute. reflexivity. Qed.
Example C17_nonvacuous :
  let tf v := {| f_ns := [78]%N; f_version := v; f_deps := [] |} in
  let fsys := [([97]%N, [([78;45;49;46;57;46;116;121;112;101;108;105;98]%N, Some (tf [49;46;57]%N))]);
               ([98]%N, [([78;45;49;46;49;48;46;116;121;112;101;108;105;98]%N, Some (tf [49;46;49;48]%N))])] in
  snd (require fsys [[97]%N; [98]%N] fuel0 [] [[97]%N; [98]%N] [78]%N None) = ROk [49;46;49;48]%N.
Proof. vm_compute. reflexivity. Qed.
