(* C18 — the dependency-GIR cache never serves stale or torn data.
   Model: Model/C18.v, a small-step system of any number of scanner processes executing the
   system-call sequence of CacheStore.load / Transformer._parse_include / CacheStore.store on one
   cache entry, with source modifications, kills, unlinks and unreadable entries as environment
   events.  [run true] is the repaired protocol (now in /repo), [run false] the code as found. *)
From Coq Require Import List.
From GIV.Model Require Import C18.
From GIV.Proofs Require Import C18.
From GIV.Model Require C18V.
From GIV.Proofs Require C18V.
Import ListNotations.

(* For every schedule (any number of processes, any interleaving, any crash points, any history
   of source modifications): an operation that finishes returns the parse of a version of the
   source that was current at some moment during that operation. *)
Theorem C18_safe : forall evs pid r,
  result_of (run true evs) pid = Some r -> In r (seen_of (run true evs) pid).
Proof.
  intros evs pid r H. unfold result_of, seen_of in *.
  destruct (procs (run true evs) pid) as [p|] eqn:Ep; [|discriminate].
  destruct (i_procs _ _ _ _ _ (inv_run evs) pid p Ep) as [_ Hpc]. destruct (p_pc p); try discriminate.
  injection H as <-. exact Hpc.
Qed.
Print Assumptions C18_safe.

(* every readable file ever published under the entry name is a complete parse whose stamp is
   not newer than the version it holds: an entry older than the source is never valid, and a
   partially written temporary is never visible *)
Theorem C18_published : forall evs i n,
  inodes (run true evs) i = Some n -> complete n = true ->
  stamp n <= payload n /\ payload n <= src (run true evs).
Proof. intro evs. exact (i_inode _ _ _ _ _ (inv_run evs)). Qed.
Print Assumptions C18_published.

(* an entry older than the source is never used: what a load that accepted an entry is about to
   unpickle is, if readable, the parse of a version that was current during that load *)
Theorem C18_validated_entry : forall evs pid p i,
  procs (run true evs) pid = Some p -> p_pc p = Valid i ->
  exists n, inodes (run true evs) i = Some n /\ (complete n = true -> In (payload n) (p_seen p)).
Proof.
  intros evs pid p i Hp Hpc. destruct (i_procs _ _ _ _ _ (inv_run evs) pid p Hp) as [_ Hc]. rewrite Hpc in Hc. exact Hc.
Qed.
Print Assumptions C18_validated_entry.

(* the code as found violated the property: two schedules, replayed on the real CacheStore by
   the check before the fix *)
Theorem C18_stale_refuted_a : stale (run false witness_a) 1 = true.
Proof. vm_compute. reflexivity. Qed.
Print Assumptions C18_stale_refuted_a.
Theorem C18_stale_refuted_b : stale (run false witness_b) 1 = true.
Proof. vm_compute. reflexivity. Qed.
Print Assumptions C18_stale_refuted_b.

(* non-vacuity: under the repaired protocol the same schedule completes and is not stale *)
Example C18_nonvacuous :
  let evs := witness_a ++ [Step 1; Step 1; Step 1; Step 1; Step 1; Step 1; Step 1] in
  stale (run true evs) 1 = false /\ result_of (run true evs) 1 <> None.
Proof. vm_compute. split; [reflexivity|discriminate]. Qed.

(* a change of scanner version discards all entries: whatever the interleaving of version checks
   (read .cache-version / list / unlink / write), stores, loads and kills of any number of
   scanner processes, and any number of upgrades made while no scanner runs, a load only ever
   returns an entry pickled by the scanner version that loads it (Model/C18V.v) *)
Theorem C18_version_change_safe : forall evs,
  Forall (fun pr => fst pr = snd pr) (C18V.served (C18V.vrun evs)).
Proof. intro evs. exact (C18V.i_served _ _ _ _ _ (C18V.inv_run evs)). Qed.
Print Assumptions C18_version_change_safe.

(* ... and the order "purge, then record the version" is what makes it true: recording the version
   first lets a second scanner, or the next one after a kill, be served an entry of the previous
   scanner version *)
Theorem C18_version_first_refuted :
  exists evs, In (1, 0) (C18V.served (fold_left C18V.vstep_version_first evs C18V.vinit)).
Proof.
  exists [C18V.VSpawn; C18V.VStep 0; C18V.VStep 0; C18V.VStep 0; C18V.VStore 0; C18V.VFinish 0; C18V.VUpgrade;
          C18V.VSpawn; C18V.VStep 1; C18V.VStep 1; C18V.VSpawn; C18V.VStep 2; C18V.VLoad 2].
  vm_compute. left. reflexivity.
Qed.
Print Assumptions C18_version_first_refuted.
