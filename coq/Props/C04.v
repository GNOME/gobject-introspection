(* C04 — each public C symbol is described once, under the right name and owner.
   Model: Model/C04.v, and Model/C04Spec.v for the occurrences of an identifier in the GIR; tied to
   /repo by harness/c04.py (generated namespaces through the real Transformer, GDumpParser,
   MainTransformer (pairing), IntrospectablePass and GIRWriter; the place, element kind, name and
   moved-to of every C identifier are compared inside Coq). *)
From Coq Require Import List Arith Bool String Lia.
From GIV.Lib Require Import Str.
From GIV.Model Require Import C02 C04 C04Spec.
From GIV.Proofs Require Import C04.
Import ListNotations.

(* splitting a symbol by type: the type found is the longest prefix (in whole underscore-separated
   words) that names a type, and prefix + "_" + rest gives the symbol back *)
Theorem C04_longest_type_prefix : forall types uscored t suffix,
  split_by_type types uscored = Some (t, suffix) ->
  let comps := split_us uscored [] in
  exists j, (0 < j <= List.length comps)%nat
            /\ uscore_lookup types (join_us (firstn j comps)) None = Some t
            /\ suffix = join_us (skipn j comps)
            /\ (forall j', (j < j' <= List.length comps)%nat -> uscore_lookup types (join_us (firstn j' comps)) None = None)
            /\ ((j < List.length comps)%nat -> uscored = join_us (firstn j comps) ++ us :: suffix)
            /\ (j = List.length comps -> uscored = join_us (firstn j comps) /\ suffix = []).
Proof.
  intros types uscored t suffix H comps.
  destruct (split_by_type_aux_spec types comps _ t suffix H) as (j & Hj & Hl & Hs & Hmax).
  exists j. do 4 (split; [assumption|]). split.
  - intros Hlt. subst suffix. rewrite <- (join_split_aux uscored []) at 1. fold comps.
    rewrite <- (firstn_skipn j comps) at 1. apply join_us_app.
    + rewrite <- length_zero_iff_nil, firstn_length. lia.
    + rewrite <- length_zero_iff_nil, skipn_length. lia.
  - intros ->. subst suffix. rewrite firstn_all, skipn_all. split; [|reflexivity].
    symmetry. apply (join_split_aux uscored []).
Qed.
Print Assumptions C04_longest_type_prefix.

Theorem C04_split_join_roundtrip : forall x, join_us (split_us x []) = x.
Proof. intros x. apply (join_split_aux x []). Qed.
Print Assumptions C04_split_join_roundtrip.

Theorem C04_underscore_names :
  (forall name, Forall (fun c => is_upper c = false) (uscore_noprefix name))
  /\ uscore_noprefix (s "TextBuffer") = s "text_buffer" /\ uscore_noprefix (s "GIOThing") = s "gio_thing"
  /\ uscore_noprefix (s "X2Y") = s "x2_y" /\ uscore_noprefix (s "DBusFoo") = s "dbus_foo".
Proof.
  split.
  - intros name. apply Forall_map, Forall_forall. intros c _. apply to_lower_not_upper.
  - destruct uscore_examples as (A & B & C & _ & D). repeat split; assumption.
Qed.
Print Assumptions C04_underscore_names.

(* a function becomes a method only of the type that is its first parameter (by value or through one
   pointer), which can have methods, and whose prefix followed by an underscore starts the symbol;
   the method name is what follows *)
Theorem C04_method_conditions : forall types f o n,
  fn_ann_method f = false ->
  pair_function types f = PMethod o n ->
  exists depth target, fn_first f = Some (o, depth) /\ (depth <= 1)%nat /\ find_type types o = Some target
                       /\ can_have_methods target = true
                       /\ startswith (uscored_prefix target (fn_sub f) ++ [us]) (fn_sub f) = true
                       /\ n = skipn (S (List.length (uscored_prefix target (fn_sub f)))) (fn_sub f).
Proof.
  intros types f o n A [[=] | [(? & ? & _ & [=]) | [M | St]]]%pair_function_cases.
  - unfold as_method in M. destruct (fn_first f) as [[ft depth]|]; [|discriminate].
    destruct (find_type types ft) as [target|] eqn:FT; [|discriminate].
    destruct (can_have_methods target) eqn:CM; [|discriminate]. cbn [negb] in M.
    destruct (Nat.ltb_spec 1 depth) as [|D]; [discriminate|]. rewrite A in M.
    destruct (negb (startswith _ _)); [discriminate|].
    destruct (startswith (_ ++ [us]) _) eqn:S2; [|discriminate].
    injection M as <- <-. apply find_some in FT as FT'. destruct FT' as [_ ->%str_eqb_eq].
    exists depth, target. repeat split; assumption || lia.
  - apply as_static_shape in St as (? & ? & ? & [=]).
Qed.
Print Assumptions C04_method_conditions.

(* a function becomes a constructor only of the type whose underscore name is the longest type
   prefix of its symbol, which can be constructed, and only when it returns that type or - for
   classes - one of its ancestors (repaired tree, fix f29afa9: before, any class return type was
   accepted) *)
Theorem C04_constructor_conditions : forall types f o n,
  pair_function types f = PConstructor o n ->
  exists origin rn target,
    split_by_type types (fn_sub f) = Some (origin, n) /\ t_name origin = o /\ can_construct origin = true
    /\ fn_ret f = Some rn /\ find_type types rn = Some target /\ can_construct target = true
    /\ (t_name origin = t_name target \/ (t_kind target = TClass /\ In (t_name target) (t_parents origin))).
Proof.
  intros types f o n [[=] | [(origin & n' & C & [= -> ->]) | [M | St]]]%pair_function_cases.
  - unfold is_constructor in C.
    destruct (negb (fn_ann_constructor f || guess_constructor (fn_symbol f))); [discriminate|].
    destruct (fn_ret f) as [rn|]; [|discriminate].
    destruct (find_type types rn) as [target|] eqn:FT; [|discriminate].
    destruct (can_construct target) eqn:CT; [|discriminate]. cbn [negb] in C.
    destruct (split_by_type types (fn_sub f)) as [[origin' name']|]; [|discriminate].
    destruct (can_construct origin') eqn:CO; [|discriminate]. cbn [negb] in C.
    destruct (negb (fn_ann_constructor f) && _); [discriminate|].
    apply returns_origin_spec in C as [[= -> ->] E]. exists origin', rn, target. repeat split; try assumption.
    destruct E as [E | [K E]]; [left; apply str_eqb_eq, E | right; split; [exact K | apply existsb_str_eqb, E]].
  - apply as_method_shape in M as (? & ? & [[=] | [=]]).
  - apply as_static_shape in St as (? & ? & ? & [=]).
Qed.
Print Assumptions C04_constructor_conditions.

(* every function is described once: exactly one occurrence of its C identifier carries no
   moved-to, and there is at most one compatibility copy *)
Theorem C04_described_once : forall intro f p,
  List.length (filter (fun o => match snd o with None => true | Some _ => false end) (occurrences intro f p)) = 1%nat
  /\ (List.length (occurrences intro f p) <= 2)%nat.
Proof. intros intro f p. destruct p as [n|o n|o n|o n []|o n]; destruct intro; cbn; split; lia. Qed.
Print Assumptions C04_described_once.

(* type-meta functions (get-type) are never paired *)
Theorem C04_get_type_not_paired : forall types f, is_type_meta f = true -> pair_function types f = PTop (fn_sub f).
Proof. intros types f H. unfold pair_function. rewrite H. reflexivity. Qed.
Print Assumptions C04_get_type_not_paired.
