From Coq Require Import List NArith Lia.
From GIV.Lib Require Import Regex Backtrack.
Import ListNotations.

(* Every capture the backtracking matcher returns lies within the subject. [bm] keeps the bound if its continuation does
   ([bm_ok]); the continuations of match and search, which record group 0, do. *)

(* every recorded group is a span start <= end that ends within [total], the length of the whole subject *)
Definition caps_ok (total : nat) (cs : caps) : Prop :=
  Forall (fun e => fst (snd e) <= snd (snd e) /\ snd (snd e) <= total) cs.

Lemma lookup_caps_ok total id cs se : caps_ok total cs -> lookup id cs = Some se -> fst se <= snd se <= total.
Proof.
  induction 1 as [|[i se'] t Hx _ IH]; simpl; [discriminate|].
  destruct (Nat.eqb i id); [intros [= <-]; exact Hx|exact IH].
Qed.

(* an answer, if there is one, is within bounds *)
Definition res_ok (total : nat) (o : option caps) : Prop := forall r, o = Some r -> caps_ok total r.

Lemma res_ok_first total (x y : option caps) :
  res_ok total x -> res_ok total y -> res_ok total (match x with Some c => Some c | None => y end).
Proof. intros Hx Hy. destruct x; assumption. Qed.

(* continuation contract relative to the position it was created at *)
Definition K_ok (total pos : nat) (k : K) : Prop :=
  forall s' p' c', pos <= p' -> p' + length s' = total -> caps_ok total c' -> res_ok total (k s' p' c').

Lemma K_ok_mono total pos pos' k : pos <= pos' -> K_ok total pos k -> K_ok total pos' k.
Proof. intros Hle Hk s' p' c' Hp. apply Hk. lia. Qed.

(* the loop of [bm (BStar g a)] with [ba] for [bm a]. It has to stay, word for word, the anonymous fix of Backtrack.bm:
   [bm_star_unfold] holds by conversion. *)
Definition star_fix (ba : str -> nat -> caps -> K -> option caps) (g : bool) (k : K) :=
  fix star (n : nat) (s : str) (pos : nat) (cs : caps) {struct n} : option caps :=
    match n with
    | O => k s pos cs
    | S n' =>
        let again := ba s pos cs (fun s' p' c' => if Nat.eqb p' pos then None else star n' s' p' c') in
        if g then match again with Some c => Some c | None => k s pos cs end
        else match k s pos cs with Some c => Some c | None => again end
    end.

Lemma bm_star_unfold g a s pos cs k :
  bm (BStar g a) s pos cs k = star_fix (bm a) g k (S (length s)) s pos cs.
Proof. reflexivity. Qed.

(* [f], a matcher that awaits its continuation, returns captures within bounds if the continuation does *)
Definition R_ok (total : nat) (f : str -> nat -> caps -> K -> option caps) : Prop :=
  forall k s pos cs, pos + length s = total -> caps_ok total cs -> K_ok total pos k -> res_ok total (f s pos cs k).

Lemma K_ok_then total pos f k : R_ok total f -> K_ok total pos k -> K_ok total pos (fun s p c => f s p c k).
Proof. intros Hf Hk s p c Hp Hl Hc. apply Hf; [exact Hl|exact Hc|]. apply K_ok_mono with pos; assumption. Qed.

Lemma star_ok total ba g k pos : R_ok total ba -> K_ok total pos k -> forall n, K_ok total pos (star_fix ba g k n).
Proof.
  intros Hba Hk. induction n as [|n IH]; intros s p cs Hp Hlen Hcs; cbn [star_fix]; [apply Hk; assumption|].
  assert (Hag : res_ok total (ba s p cs (fun s' p' c' => if Nat.eqb p' p then None else star_fix ba g k n s' p' c'))).
  { apply Hba; trivial. intros s' p' c' Hp' Hl' Hc'. destruct (Nat.eqb p' p); [discriminate|]. apply IH; trivial. lia. }
  destruct g; apply res_ok_first; trivial; apply Hk; assumption.
Qed.

Lemma bm_ok total (r : bre) : R_ok total (bm r).
Proof.
  induction r as [|c|a IHa b IHb|a IHa b IHb|g a IHa|g a IHa|id a IHa| | |a IHa]; intros k s pos cs Hlen Hcs Hk;
    assert (Hk0 : res_ok total (k s pos cs)) by (apply Hk; auto).
  - exact Hk0.
  - cbn [bm]. destruct s as [|x t]; [discriminate|]. destruct (cls_mem c x); [|discriminate].
    cbn in Hlen. apply Hk; trivial; lia.
  - cbn [bm]. apply IHa; trivial. apply K_ok_then; [exact IHb|exact Hk].
  - cbn [bm]. apply res_ok_first; [apply IHa|apply IHb]; assumption.
  - rewrite bm_star_unfold. apply (star_ok total (bm a) g k pos IHa Hk); auto.
  - cbn [bm]. destruct g; apply res_ok_first; trivial; apply IHa; assumption.
  - cbn [bm]. apply IHa; trivial.
    intros s' p' c' Hp Hl' Hc'. apply Hk; trivial. constructor; [cbn; lia|exact Hc'].
  - cbn [bm]. destruct (Nat.eqb pos 0); [exact Hk0|discriminate].
  - cbn [bm]. destruct s as [|x t]; [exact Hk0|].
    destruct (N.eqb x 10 && match t with [] => true | _ => false end)%bool; [exact Hk0|discriminate].
  - cbn [bm]. destruct (bm a s pos cs (fun _ _ c' => Some c')); [discriminate|exact Hk0].
Qed.

Theorem bmatch_at_caps_in_bounds r s pos res : bmatch_at r s pos = Some res -> caps_ok (pos + length s) res.
Proof.
  apply (bm_ok (pos + length s) r); [reflexivity|constructor|].
  intros s' p' c' Hp Hl Hc' r' [= <-]. constructor; [cbn; lia|exact Hc'].
Qed.

Theorem bmatch_caps_in_bounds r s res : bmatch r s = Some res -> caps_ok (length s) res.
Proof. apply bmatch_at_caps_in_bounds. Qed.

Theorem bsearch_caps_in_bounds r : forall s pos res, bsearch_from r s pos = Some res -> caps_ok (pos + length s) res.
Proof.
  induction s as [|x t IH]; intros pos res; cbn [bsearch_from]; apply res_ok_first;
    try (intro r'; apply bmatch_at_caps_in_bounds).
  - discriminate.
  - intros r' H%IH. cbn [length]. rewrite <- plus_n_Sm. exact H.
Qed.
