From Coq Require Import List NArith Bool.
From GIV.Lib Require Import Regex.
Import ListNotations.
Local Open Scope N_scope.

(* The language [L] of the shapes of which translated patterns are made: a literal, a class in front, a literal at either
   end, an option, the star of a class. *)

Lemma in_ranges_existsb l x : in_ranges l x = existsb (fun r => (fst r <=? x) && (x <=? snd r)) l.
Proof. induction l as [|[lo hi] t IH]; simpl; [reflexivity|]. rewrite IH. destruct ((lo <=? x) && (x <=? hi)); reflexivity. Qed.

Lemma L_cls_cat c r w : L (Cat (Cls c) r) w <-> exists x t, w = x :: t /\ cls_mem c x = true /\ L r t.
Proof.
  split.
  - intros (? & t & -> & (x & -> & Hx)%L_cls & H)%L_cat. exists x, t. auto.
  - intros (x & t & -> & Hx & H). apply (LCat _ _ [x]); [apply LCls, Hx|exact H].
Qed.

Lemma L_lit s w : L (Lit s) w <-> w = s.
Proof.
  revert w. induction s as [|c t IH]; intro w; simpl; [apply L_eps|].
  rewrite L_cls_cat. setoid_rewrite IH. cbn [cls_mem]. setoid_rewrite N.eqb_eq. split.
  - intros (x & ? & -> & -> & ->). reflexivity.
  - intros ->. exists c, t. auto.
Qed.

(* a literal at either end of a concatenation: where the word splits is known *)
Lemma L_lit_cat s r w : L (Cat (Lit s) r) w <-> exists t, w = s ++ t /\ L r t.
Proof.
  split.
  - intros (? & t & -> & ->%L_lit & H)%L_cat. eauto.
  - intros (t & -> & H). apply LCat; [apply L_lit; reflexivity|exact H].
Qed.
Lemma L_cat_lit r s w : L (Cat r (Lit s)) w <-> exists d, w = d ++ s /\ L r d.
Proof.
  split.
  - intros (d & ? & -> & H & ->%L_lit)%L_cat. eauto.
  - intros (d & -> & H). apply LCat; [exact H|apply L_lit; reflexivity].
Qed.

Lemma L_opt r w : L (Opt r) w <-> w = [] \/ L r w.
Proof. unfold Opt. rewrite L_alt, L_eps. reflexivity. Qed.

Lemma L_star_cls c w : L (Star (Cls c)) w <-> Forall (fun x => cls_mem c x = true) w.
Proof.
  induction w as [|x t IH]; [split; constructor|].
  rewrite L_star_cons, Forall_cons_iff, <- IH. split.
  - intros (s1 & s2 & -> & (y & [= -> ->] & Hy)%L_cls & H2). auto.
  - intros [Hx Ht]. exists [], t. repeat split; [apply LCls, Hx|exact Ht].
Qed.

Lemma L_star_not c w : L (Star (Cls (CNot (CChar c)))) w <-> Forall (fun x => x <> c) w.
Proof.
  rewrite L_star_cls. split; apply Forall_impl; intro a; cbn; rewrite negb_true_iff, N.eqb_neq; trivial.
Qed.
