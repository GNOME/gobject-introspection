From Coq Require Import List NArith Bool.
Import ListNotations.
Local Open Scope N_scope.

(* Regular expressions over code points: their language [L], and a matcher by derivatives that decides it ([rmatch_spec]). *)

(* a Python `str`, as the list of its code points; its operations are in Lib/Str.v *)
Definition str := list N.

Inductive cls :=
| CAny
| CChar (c : N)
| CRanges (l : list (N * N))
| CNot (c : cls)
| COr (a b : cls).

Fixpoint in_ranges (l : list (N * N)) (x : N) : bool :=
  match l with
  | [] => false
  | (lo, hi) :: t => if (lo <=? x) && (x <=? hi) then true else in_ranges t x      (* `if`: evaluated lazily by the VM *)
  end.

Fixpoint cls_mem (c : cls) (x : N) : bool :=
  match c with
  | CAny => true
  | CChar y => N.eqb x y
  | CRanges l => in_ranges l x
  | CNot c' => negb (cls_mem c' x)
  | COr a b => if cls_mem a x then true else cls_mem b x
  end.

Inductive re :=
| Empty | Eps
| Cls (c : cls)
| Cat (r1 r2 : re)
| Alt (r1 r2 : re)
| Star (r : re).

Fixpoint Lit (s : str) : re :=
  match s with
  | [] => Eps
  | c :: t => Cat (Cls (CChar c)) (Lit t)
  end.
Definition Opt (r : re) := Alt Eps r.

Inductive L : re -> str -> Prop :=
| LEps : L Eps []
| LCls c x : cls_mem c x = true -> L (Cls c) [x]
| LCat r1 r2 s1 s2 : L r1 s1 -> L r2 s2 -> L (Cat r1 r2) (s1 ++ s2)
| LAltL r1 r2 s : L r1 s -> L (Alt r1 r2) s
| LAltR r1 r2 s : L r2 s -> L (Alt r1 r2) s
| LStar0 r : L (Star r) []
| LStarS r s1 s2 : L r s1 -> L (Star r) s2 -> L (Star r) (s1 ++ s2).

Fixpoint nullable (r : re) : bool :=
  match r with
  | Empty => false | Eps => true | Cls _ => false
  | Cat a b => nullable a && nullable b
  | Alt a b => nullable a || nullable b
  | Star _ => true
  end.

Fixpoint deriv (x : N) (r : re) : re :=
  match r with
  | Empty => Empty | Eps => Empty
  | Cls c => if cls_mem c x then Eps else Empty
  | Cat a b => if nullable a then Alt (Cat (deriv x a) b) (deriv x b) else Cat (deriv x a) b
  | Alt a b => Alt (deriv x a) (deriv x b)
  | Star a => Cat (deriv x a) (Star a)
  end.

Fixpoint rmatch (r : re) (s : str) : bool :=
  match s with
  | [] => nullable r
  | x :: t => rmatch (deriv x r) t
  end.

Lemma L_empty s : L Empty s <-> False.
Proof. split; intro H; inversion H. Qed.
Lemma L_eps s : L Eps s <-> s = [].
Proof. split; intro H; [inversion H; reflexivity|subst; constructor]. Qed.
Lemma L_cls c s : L (Cls c) s <-> exists x, s = [x] /\ cls_mem c x = true.
Proof. split; [intro H; inversion H; eauto|intros (x & -> & H); constructor; exact H]. Qed.
Lemma L_cat r1 r2 s : L (Cat r1 r2) s <-> exists s1 s2, s = s1 ++ s2 /\ L r1 s1 /\ L r2 s2.
Proof. split; [intro H; inversion H; eauto|intros (s1 & s2 & -> & H1 & H2); constructor; assumption]. Qed.
Lemma L_alt r1 r2 s : L (Alt r1 r2) s <-> L r1 s \/ L r2 s.
Proof. split; [intro H; inversion H; auto|intros [H|H]; [apply LAltL|apply LAltR]; exact H]. Qed.

Lemma nullable_spec r : nullable r = true <-> L r [].
Proof.
  induction r as [| |c|a IHa b IHb|a IHa b IHb|a IHa]; simpl.
  - rewrite L_empty. split; [discriminate|contradiction].
  - rewrite L_eps. split; reflexivity.
  - rewrite L_cls. split; [discriminate|intros (x & [=] & _)].
  - rewrite andb_true_iff, IHa, IHb, L_cat. split.
    + intros [Ha Hb]. exists [], []. auto.
    + intros (s1 & s2 & [-> ->]%eq_sym%app_eq_nil & H). exact H.
  - rewrite orb_true_iff, IHa, IHb, L_alt. reflexivity.
  - split; [constructor|reflexivity].
Qed.

Lemma L_cat_cons a b x s : L (Cat a b) (x :: s) <->
  (exists s1 s2, s = s1 ++ s2 /\ L a (x :: s1) /\ L b s2) \/ (L a [] /\ L b (x :: s)).
Proof.
  rewrite L_cat. split.
  - intros ([|y s1] & s2 & E & H1 & H2); simpl in E; [subst; auto|]. injection E as <- ->. left. exists s1, s2. auto.
  - intros [(s1 & s2 & -> & H1 & H2)|[H1 H2]]; [exists (x :: s1), s2|exists [], (x :: s)]; auto.
Qed.

Lemma L_star_cons r x s : L (Star r) (x :: s) <-> exists s1 s2, s = s1 ++ s2 /\ L r (x :: s1) /\ L (Star r) s2.
Proof.
  split; [|intros (s1 & s2 & -> & H1 & H2); apply (LStarS r (x :: s1)); assumption].
  (* induction on the derivation. Only [LStarS] fits [Star r] and [x :: s]: if its first iteration [s1] is empty, the
     letter is in the rest [s2], to which the induction hypothesis applies; otherwise [s1] starts with [x] *)
  intro H. remember (Star r) as r' eqn:Hr. remember (x :: s) as w eqn:Hw.
  induction H as [| | | | | |r0 [|y s1] s2 H1 _ H2 IH2]; try discriminate; injection Hr as ->.
  - apply IH2; trivial.
  - injection Hw as -> <-. exists s1, s2. auto.
Qed.

Lemma deriv_spec r : forall x s, L (deriv x r) s <-> L r (x :: s).
Proof.
  induction r as [| |c|a IHa b IHb|a IHa b IHb|a IHa]; intros x s; simpl.
  - rewrite !L_empty. reflexivity.
  - rewrite L_empty, L_eps. split; [contradiction|discriminate].
  - rewrite L_cls. split.
    + destruct (cls_mem c x) eqn:E; [intros ->%L_eps; eauto|intros []%L_empty].
    + intros (y & [= -> ->] & ->). constructor.
  - rewrite L_cat_cons, <- nullable_spec. destruct (nullable a); [rewrite L_alt, IHb|]; rewrite L_cat; setoid_rewrite IHa.
    + split; [intros [H|H]; auto|intros [H|[_ H]]; auto].
    + split; [auto|intros [H|[[=] _]]; exact H].
  - rewrite !L_alt, IHa, IHb. reflexivity.
  - rewrite L_star_cons, L_cat. setoid_rewrite IHa. reflexivity.
Qed.

Theorem rmatch_spec : forall s r, rmatch r s = true <-> L r s.
Proof.
  induction s as [|x t IH]; intro r; simpl.
  - apply nullable_spec.
  - rewrite IH. apply deriv_spec.
Qed.
