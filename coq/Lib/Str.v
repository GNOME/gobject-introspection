From Coq Require Import List NArith Bool.
From GIV.Lib Require Import Regex.
From GIV.Gen Require Import Unicode.
Import ListNotations.
Local Open Scope N_scope.

(* The operations of Python `str` that the scanner uses, with the edge cases of CPython, on [str] of Lib/Regex.v (a list of
   code points). Character tables come from Gen/Unicode.v, which is regenerated from the running interpreter. *)

Definition is_space (c : N) : bool := existsb (N.eqb c) py_space_points.
Definition is_linebreak (c : N) : bool := existsb (N.eqb c) py_linebreak_points.

Fixpoint str_eqb (a b : str) : bool :=
  match a, b with
  | [], [] => true
  | x :: a', y :: b' => N.eqb x y && str_eqb a' b'
  | _, _ => false
  end.

Lemma str_eqb_eq a b : str_eqb a b = true <-> a = b.
Proof.
  revert b; induction a as [|x a IH]; intros [|y b]; simpl; split; intro H; try discriminate; auto.
  - apply andb_true_iff in H as [H1 H2]. apply N.eqb_eq in H1. apply IH in H2. congruence.
  - injection H as -> ->. rewrite N.eqb_refl. simpl. apply IH. reflexivity.
Qed.
Lemma str_eqb_refl a : str_eqb a a = true.
Proof. apply str_eqb_eq. reflexivity. Qed.
Lemma str_eqb_spec a b : reflect (a = b) (str_eqb a b).
Proof. apply iff_reflect. symmetry. apply str_eqb_eq. Qed.
Lemma str_eqb_neq a b : a <> b -> str_eqb a b = false.
Proof. destruct (str_eqb_spec a b); [contradiction | reflexivity]. Qed.
Lemma str_eqb_sym a b : str_eqb a b = str_eqb b a.
Proof. destruct (str_eqb_spec a b) as [E|E], (str_eqb_spec b a) as [F|F]; congruence. Qed.
Lemma existsb_str_eqb x l : existsb (str_eqb x) l = true <-> In x l.
Proof.
  rewrite existsb_exists. split; [intros (y & Hy & E); apply str_eqb_eq in E; subst; exact Hy|].
  intro H. exists x. split; [exact H|apply str_eqb_refl].
Qed.

(* str.split() with no argument *)
Fixpoint split_ws_aux (s : str) (cur : str) : list str :=
  match s with
  | [] => match cur with [] => [] | _ => [rev cur] end
  | c :: t =>
      if is_space c then
        match cur with [] => split_ws_aux t [] | _ => rev cur :: split_ws_aux t [] end
      else split_ws_aux t (c :: cur)
  end.
Definition split_ws (s : str) : list str := split_ws_aux s [].

(* str.splitlines() *)
Fixpoint splitlines_aux (s : str) (cur : str) (after_cr : bool) : list str :=
  match s with
  | [] => match cur with [] => [] | _ => [rev cur] end
  | c :: t =>
      if after_cr && N.eqb c 10 then splitlines_aux t cur false
      else if is_linebreak c then rev cur :: splitlines_aux t [] (N.eqb c 13)
      else splitlines_aux t (c :: cur) false
  end.
Definition splitlines (s : str) : list str := splitlines_aux s [] false.

Fixpoint startswith (p s : str) : bool :=
  match p, s with
  | [], _ => true
  | x :: p', y :: s' => N.eqb x y && startswith p' s'
  | _, [] => false
  end.
Definition endswith (p s : str) : bool := startswith (rev p) (rev s).

Definition last_char (s : str) : option N :=
  match rev s with [] => None | c :: _ => Some c end.

(* os.path.basename (posixpath): everything after the last '/' *)
Fixpoint basename_aux (s : str) (cur : str) : str :=
  match s with
  | [] => rev cur
  | c :: t => if N.eqb c 47 then basename_aux t [] else basename_aux t (c :: cur)
  end.
Definition basename (s : str) : str := basename_aux s [].

Fixpoint join (sep : str) (l : list str) : str :=
  match l with
  | [] => []
  | [x] => x
  | x :: t => x ++ sep ++ join sep t
  end.

Lemma startswith_app p s : startswith p (p ++ s) = true.
Proof. induction p as [|x p IH]; simpl; [reflexivity|]. rewrite N.eqb_refl. exact IH. Qed.
Lemma endswith_app suf p : endswith suf (p ++ suf) = true.
Proof. unfold endswith. rewrite rev_app_distr. apply startswith_app. Qed.
Lemma startswith_spec p s : startswith p s = true <-> exists r, s = p ++ r.
Proof.
  revert s; induction p as [|x p IH]; intro s; simpl.
  - split; [intros _; exists s; reflexivity|reflexivity].
  - destruct s as [|y s]; [split; [discriminate|intros (r & Hr); discriminate]|].
    rewrite andb_true_iff, N.eqb_eq, IH. split.
    + intros (-> & r & ->). exists r. reflexivity.
    + intros (r & Hr). injection Hr as -> ->. split; [reflexivity|exists r; reflexivity].
Qed.

Lemma basename_aux_plain b cur : Forall (fun x => x <> 47) b -> basename_aux b cur = rev cur ++ b.
Proof.
  intro H. revert cur. induction H as [|c t Hc _ IH]; intro cur; simpl.
  - rewrite app_nil_r. reflexivity.
  - destruct (N.eqb_spec c 47) as [E|_]; [contradiction|]. rewrite IH. simpl. rewrite <- app_assoc. reflexivity.
Qed.
Lemma basename_plain b : Forall (fun x => x <> 47) b -> basename b = b.
Proof. apply basename_aux_plain. Qed.
Lemma basename_aux_dir d b : forall cur, Forall (fun x => x <> 47) b -> basename_aux (d ++ 47 :: b) cur = b.
Proof.
  induction d as [|c t IH]; intros cur H; simpl.
  - apply basename_plain. exact H.
  - destruct (N.eqb c 47); apply IH; exact H.
Qed.
Lemma basename_dir d b : Forall (fun x => x <> 47) b -> basename (d ++ 47 :: b) = b.
Proof. apply basename_aux_dir. Qed.

(* every string is of one of the two forms above: it has no '/', or it splits at its last '/' *)
Lemma last_slash (s : str) :
  Forall (fun x => x <> 47) s \/ exists d b, s = d ++ 47 :: b /\ Forall (fun x => x <> 47) b.
Proof.
  induction s as [|c t [H|(d & b & -> & H)]].
  - left. constructor.
  - destruct (N.eq_dec c 47) as [->|Hc]; [right; exists [], t; auto|left; constructor; assumption].
  - right. exists (c :: d), b. auto.
Qed.

Lemma basename_no_slash s : Forall (fun x => x <> 47) (basename s).
Proof. destruct (last_slash s) as [H|(d & b & -> & H)]; [rewrite basename_plain|rewrite basename_dir]; assumption. Qed.

Lemma basename_split s : exists pre, s = pre ++ basename s /\ (pre = [] \/ exists d, pre = d ++ [47]).
Proof.
  destruct (last_slash s) as [H|(d & b & -> & H)].
  - exists []. rewrite basename_plain by exact H. auto.
  - exists (d ++ [47]). rewrite basename_dir, <- app_assoc by exact H. eauto.
Qed.
Lemma basename_suffix s : exists pre, s = pre ++ basename s.
Proof. destruct (basename_split s) as (pre & H & _). exists pre. exact H. Qed.

Lemma forallb_neqb (k : N) w : forallb (fun c => negb (N.eqb c k)) w = true <-> ~ In k w.
Proof.
  induction w as [|c t IH]; simpl; [tauto|]. rewrite andb_true_iff, negb_true_iff, N.eqb_neq, IH. intuition congruence.
Qed.

Lemma join_cons sep x l : l <> [] -> join sep (x :: l) = x ++ sep ++ join sep l.
Proof. destruct l; [contradiction | reflexivity]. Qed.

Lemma join_app sep a b : a <> [] -> b <> [] -> join sep (a ++ b) = join sep a ++ sep ++ join sep b.
Proof.
  intros Ha Hb. induction a as [|x [|y t] IH]; [contradiction | apply join_cons, Hb |].
  rewrite <- app_comm_cons, join_cons, IH, (join_cons sep x), <- !app_assoc by discriminate. reflexivity.
Qed.

(* str.join and a split at one separator character undo each other. The split is given by its two
   equations, so that the splitting function of each model is an instance. *)
Section JoinSplit.
  Context (sep : N) (split : str -> str -> list str).
  Context (split_nil : forall cur, split [] cur = [rev cur]).
  Context (split_cons : forall c r cur,
             split (c :: r) cur = if N.eqb c sep then rev cur :: split r [] else split r (c :: cur)).

  Lemma split_nonempty x : forall cur, split x cur <> [].
  Proof.
    induction x as [|c r IH]; intros cur.
    - rewrite split_nil. discriminate.
    - rewrite split_cons. destruct (N.eqb c sep); [discriminate | apply IH].
  Qed.

  Lemma join_split x : forall cur, join [sep] (split x cur) = rev cur ++ x.
  Proof.
    induction x as [|c r IH]; intros cur; [rewrite split_nil, app_nil_r; reflexivity|].
    rewrite split_cons. destruct (N.eqb_spec c sep) as [->|_].
    - rewrite join_cons, IH by apply split_nonempty. reflexivity.
    - rewrite IH. simpl. rewrite <- app_assoc. reflexivity.
  Qed.

  Lemma split_word w : forall r cur, ~ In sep w -> split (w ++ r) cur = split r (rev w ++ cur).
  Proof.
    induction w as [|c t IH]; intros r cur H; [reflexivity|]. simpl in *. rewrite split_cons.
    destruct (N.eqb_spec c sep) as [->|_]; [tauto|]. rewrite IH, <- app_assoc by tauto. reflexivity.
  Qed.

  Lemma split_join w l : forall cur, Forall (fun w => ~ In sep w) (w :: l) ->
    split (join [sep] (w :: l)) cur = (rev cur ++ w) :: l.
  Proof.
    revert w. induction l as [|w2 l IH]; intros w cur [Hw Hl]%Forall_cons_iff.
    - (* [join [sep] [w]] is [w]; written [w ++ []] it has the form [split_word] rewrites *)
      rewrite <- (app_nil_r (join _ _)), split_word, split_nil, rev_app_distr, rev_involutive by exact Hw. reflexivity.
    - rewrite join_cons, split_word by (discriminate || exact Hw). cbn [app]. rewrite split_cons, N.eqb_refl, IH by exact Hl.
      rewrite rev_app_distr, rev_involutive. reflexivity.
  Qed.

  Lemma split_nosep x : forall cur, ~ In sep cur -> Forall (fun w => ~ In sep w) (split x cur).
  Proof.
    induction x as [|c r IH]; intros cur H.
    - rewrite split_nil. repeat constructor. rewrite <- in_rev. exact H.
    - rewrite split_cons. destruct (N.eqb_spec c sep) as [->|Hc].
      + constructor; [rewrite <- in_rev; exact H | apply IH; intros []].
      + apply IH. simpl. intros [E|Hin]; [congruence|exact (H Hin)].
  Qed.
End JoinSplit.
