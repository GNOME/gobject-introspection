From Coq Require Import List ZArith Lia.
Import ListNotations.

(* Facts about lists, conditionals, folds and integers that the proofs of several properties share. *)

Section Lists.
  Context {A : Type}.
  Implicit Types (x y a b : list A).

  Lemma skipn_app_exact a b : skipn (length a) (a ++ b) = b.
  Proof. induction a; simpl; auto. Qed.
  Lemma firstn_app_exact a b : firstn (length a) (a ++ b) = a.
  Proof. induction a; simpl; [reflexivity|]. f_equal. assumption. Qed.

  Lemma map_id_on (f : A -> A) x : Forall (fun c => f c = c) x -> map f x = x.
  Proof. induction 1; simpl; congruence. Qed.

  Lemma in_app_mid (c d : A) a b : In c (a ++ d :: b) <-> d = c \/ In c (a ++ b).
  Proof. rewrite !in_app_iff. simpl. tauto. Qed.

  Lemma forallb_Forall (f : A -> bool) x : forallb f x = true <-> Forall (fun c => f c = true) x.
  Proof. rewrite forallb_forall, Forall_forall. reflexivity. Qed.
  Lemma existsb_false (f : A -> bool) x : Forall (fun c => f c = false) x -> existsb f x = false.
  Proof. induction 1 as [|c t Hc _ IH]; simpl; [reflexivity|]. rewrite Hc. exact IH. Qed.
  Lemma hd_Forall (P : A -> Prop) d x : x <> [] -> Forall P x -> P (hd d x).
  Proof. intros Hne H. destruct H as [|c t Hc _]; [congruence | exact Hc]. Qed.
  Lemma Forall_last (P : A -> Prop) x d : Forall P x -> P d -> P (last x d).
  Proof. intros H Hd. induction H as [|c [|e t] Hc Ht IH]; [exact Hd|exact Hc|exact IH]. Qed.

  Lemma app_sep_inj (c : A) : forall a b x y, ~ In c a -> ~ In c b -> a ++ c :: x = b ++ c :: y -> a = b /\ x = y.
  Proof.
    induction a as [|d a IH]; intros [|e b] x y Ha Hb E; simpl in *; injection E as E; subst.
    - auto.
    - tauto.
    - tauto.
    - destruct (IH b x y) as [-> ->]; tauto.
  Qed.

  Lemma app_sep_inj_last (c : A) a b x y : ~ In c x -> ~ In c y -> a ++ c :: x = b ++ c :: y -> a = b /\ x = y.
  Proof.
    intros Hx Hy E. apply (f_equal (@rev A)) in E. rewrite !rev_app_distr in E. simpl in E. rewrite <- !app_assoc in E.
    destruct (app_sep_inj c (rev x) (rev y) (rev a) (rev b)) as [E1 E2]; rewrite <- ?in_rev; auto.
    apply (f_equal (@rev A)) in E1, E2. rewrite !rev_involutive in E1, E2. auto.
  Qed.

  (* [x] is a contiguous piece of [y]: what strip, skipn, firstn and capture groups return of their argument *)
  Definition segment x y : Prop := exists a b, y = a ++ x ++ b.

  Lemma segment_refl x : segment x x.
  Proof. exists [], []. rewrite app_nil_r. reflexivity. Qed.
  Lemma segment_trans x y z : segment x y -> segment y z -> segment x z.
  Proof. intros (a & b & ->) (c & d & ->). exists (c ++ a), (b ++ d). rewrite <- !app_assoc. reflexivity. Qed.
  Lemma segment_length x y : segment x y -> length x <= length y.
  Proof. intros (a & b & ->). rewrite !app_length. lia. Qed.
  Lemma segment_Forall (P : A -> Prop) x y : segment x y -> Forall P y -> Forall P x.
  Proof. intros (a & b & ->) H. apply Forall_app in H as [_ H]. apply Forall_app in H as [H _]. exact H. Qed.
  Lemma segment_skipn n x : segment (skipn n x) x.
  Proof. exists (firstn n x), []. rewrite app_nil_r. symmetry. apply firstn_skipn. Qed.
  Lemma segment_firstn n x : segment (firstn n x) x.
  Proof. exists [], (skipn n x). symmetry. apply firstn_skipn. Qed.
  Lemma segment_rev x y : segment x y -> segment (rev x) (rev y).
  Proof. intros (a & b & ->). exists (rev b), (rev a). rewrite !rev_app_distr, <- app_assoc. reflexivity. Qed.
  Lemma segment_tl c x : segment x (c :: x).
  Proof. exists [c], []. rewrite app_nil_r. reflexivity. Qed.

  Lemma Forall_removelast (P : A -> Prop) x : Forall P x -> Forall P (removelast x).
  Proof. rewrite removelast_firstn_len. apply segment_Forall, segment_firstn. Qed.
End Lists.

Lemma map_fst_combine {A B} (l : list A) : forall l' : list B, length l = length l' -> map fst (combine l l') = l.
Proof. induction l as [|x t IH]; intros [|y u] [=]; cbn; [reflexivity|]. f_equal. apply IH. assumption. Qed.
Lemma map_snd_combine {A B} (l : list A) : forall l' : list B, length l = length l' -> map snd (combine l l') = l'.
Proof. induction l as [|x t IH]; intros [|y u] [=]; cbn; [reflexivity|]. f_equal. apply IH. assumption. Qed.

Lemma NoDup_map_inj {A B} (f : A -> B) l x y : NoDup (map f l) -> In x l -> In y l -> f x = f y -> x = y.
Proof.
  induction l as [|a l IH]; cbn; [tauto|]. intros [Ha Hl]%NoDup_cons_iff [->|Hx] [->|Hy] E; auto.
  - destruct Ha. rewrite E. apply in_map, Hy.
  - destruct Ha. rewrite <- E. apply in_map, Hx.
Qed.

Lemma fold_left_invariant {A B} (P : A -> Prop) (f : A -> B -> A) l :
  (forall a x, In x l -> P a -> P (f a x)) -> forall a, P a -> P (fold_left f l a).
Proof.
  induction l as [|x t IH]; intros Hf a Ha; simpl; [exact Ha|].
  apply IH; [intros b y Hy; apply Hf; right; exact Hy|apply Hf; [left; reflexivity|exact Ha]].
Qed.

(* folding a least-upper-bound operation gives the least upper bound of the seed and the elements *)
Lemma fold_left_lub {A B} (le : A -> A -> Prop) (op : A -> A -> A) (g : B -> A) :
  (forall a b z, le (op a b) z <-> le a z /\ le b z) ->
  forall l s z, le (fold_left (fun m x => op m (g x)) l s) z <-> le s z /\ Forall (fun x => le (g x) z) l.
Proof.
  intro Hop. induction l as [|x t IH]; intros s z; simpl.
  - rewrite Forall_nil_iff. tauto.
  - rewrite IH, Hop, Forall_cons_iff. tauto.
Qed.

Lemma fold_left_ub {A B} (le : A -> A -> Prop) (op : A -> A -> A) (g : B -> A) :
  (forall a, le a a) -> (forall a b z, le (op a b) z <-> le a z /\ le b z) ->
  forall l s, Forall (fun x => le (g x) (fold_left (fun m x => op m (g x)) l s)) l.
Proof. intros Hr Hop l s. exact (proj2 (proj1 (fold_left_lub le op g Hop l s _) (Hr _))). Qed.

(* conditionals and destructuring lets: a conditional of pairs is a pair of conditionals and a destructuring let is its
   body at the two projections, which lets `let '(x, y) := if .. in ..` reduce and what is bound be rewritten *)
Lemma if_pair {A B} (c : bool) (x x' : A) (y y' : B) :
  (if c then (x, y) else (x', y')) = (if c then x else x', if c then y else y').
Proof. destruct c; reflexivity. Qed.
Lemma if_same {A} (c : bool) (x : A) : (if c then x else x) = x.
Proof. destruct c; reflexivity. Qed.
Lemma let_pair {A B C} (x : A * B) (f : A -> B -> C) : (let '(a, b) := x in f a b) = f (fst x) (snd x).
Proof. destruct x. reflexivity. Qed.
(* two destructuring lets agree, as far as c looks, when the pairs have the same first component and the bodies agree,
   as far as c looks, whatever the second *)
Lemma let_fst_eq {A B C T} (c : C -> T) (x y : A * B) (f g : A -> B -> C) :
  fst x = fst y -> (forall a b b', c (f a b) = c (g a b')) ->
  c (let '(a, b) := x in f a b) = c (let '(a, b) := y in g a b).
Proof. destruct x, y. cbn [fst]. intros <- H. apply H. Qed.
Lemma in_if_nil {A} (c : bool) (x : A) l : In x (if c then l else []) <-> c = true /\ In x l.
Proof. now destruct c. Qed.
Lemma in_if_nil_l {A} (c : bool) (x : A) l : In x (if c then [] else l) <-> c = false /\ In x l.
Proof. now destruct c. Qed.

(* masking with the complement of 2^k - 1 rounds DOWN to a multiple of 2^k; the C alignment macros add 2^k - 1 first,
   which makes it rounding up *)
Lemma land_lnot_pow2 m k : (0 <= k -> Z.land m (Z.lnot (2 ^ k - 1)) = m / 2 ^ k * 2 ^ k)%Z.
Proof.
  intro Hk. rewrite <- Z.ldiff_land. replace (2 ^ k - 1)%Z with (Z.ones k) by (rewrite Z.ones_equiv; lia).
  rewrite Z.ldiff_ones_r, Z.shiftr_div_pow2, Z.shiftl_mul_pow2 by exact Hk. reflexivity.
Qed.
