From Coq Require Import List Lia PeanoNat.
From GIV.Lib Require Import Regex Backtrack BtBounds.
Import ListNotations.

(* What the backtracking matcher consumes: a sufficient condition for a pattern to get past a part of its subject whatever
   follows, and the exact run of a greedy star of a character class. *)

(* r can match the part of x in front of y: it succeeds if what follows succeeds on y *)
Definition reaches (r : bre) (x y : str) : Prop := forall k pos cs, (forall p c, k y p c <> None) -> bm r x pos cs k <> None.

Lemma star_skip ba g k n x pos cs : k x pos cs <> None -> star_fix ba g k n x pos cs <> None.
Proof.
  intro Hk. destruct n as [|n]; cbn [star_fix]; [exact Hk|].
  destruct g; [destruct (ba x pos cs _)|destruct (k x pos cs)]; congruence.
Qed.

Lemma reaches_eps x : reaches BEps x x.
Proof. intros k pos cs Hk. apply Hk. Qed.
Lemma reaches_eol : reaches BEol [] [].
Proof. intros k pos cs Hk. apply Hk. Qed.
Lemma reaches_cat a b x y z : reaches a x y -> reaches b y z -> reaches (BCat a b) x z.
Proof. intros Ha Hb k pos cs Hk. cbn [bm]. apply Ha. intros p c. apply Hb, Hk. Qed.
Lemma reaches_star g a x : reaches (BStar g a) x x.
Proof. intros k pos cs Hk. rewrite bm_star_unfold. apply star_skip, Hk. Qed.
Lemma reaches_opt g a x : reaches (BOpt g a) x x.
Proof. intros k pos cs Hk. specialize (Hk pos cs). cbn [bm]. destruct g; [destruct (bm a x pos cs k)|destruct (k x pos cs)]; congruence. Qed.
Lemma reaches_group id a x y : reaches a x y -> reaches (BGroup id a) x y.
Proof. intros Ha k pos cs Hk. cbn [bm]. apply Ha. intros p c. apply Hk. Qed.

Create HintDb reaches.
#[export] Hint Resolve reaches_eps reaches_eol reaches_cat reaches_star reaches_opt reaches_group : reaches.

(* the star of a class over a character of the class: one more round, or the continuation right here *)
Lemma star_fix_cls_step c g k n ch t pos cs : cls_mem c ch = true ->
  star_fix (bm (BCls c)) g k (S n) (ch :: t) pos cs =
  if g then match star_fix (bm (BCls c)) g k n t (S pos) cs with Some r => Some r | None => k (ch :: t) pos cs end
  else match k (ch :: t) pos cs with Some r => Some r | None => star_fix (bm (BCls c)) g k n t (S pos) cs end.
Proof.
  intro Hc. assert (Hne : Nat.eqb (S pos) pos = false) by (apply Nat.eqb_neq; lia).
  destruct g; cbn [star_fix bm]; rewrite Hc, Hne; reflexivity.
Qed.

(* over a subject that lies within the class it succeeds, greedy or not, if the continuation succeeds at the end *)
Lemma star_absorb c g k : (forall p cs, k [] p cs <> None) -> forall x n pos cs,
  Forall (fun ch => cls_mem c ch = true) x -> length x < n ->
  star_fix (bm (BCls c)) g k n x pos cs <> None.
Proof.
  intros Hk. induction x as [|ch t IH]; intros n pos cs Hx Hn.
  - apply star_skip, Hk.
  - destruct n as [|n]; [cbn in Hn; lia|].
    apply Forall_cons_iff in Hx as [Hc Ht]. rewrite (star_fix_cls_step c g k n ch t pos cs Hc).
    specialize (IH n (S pos) cs Ht ltac:(cbn in Hn; lia)).
    destruct g; [destruct (star_fix _ _ _ _ _ _ _)|destruct (k (ch :: t) pos cs)]; congruence.
Qed.

Definition stops (c : cls) (x : str) : Prop := match x with [] => True | h :: _ => cls_mem c h = false end.

(* a greedy star of a class runs over the characters of the class and stops in front of the first other one *)
Lemma star_greedy_run c k r : forall w n s' pos cs,
  Forall (fun x => cls_mem c x = true) w -> stops c s' -> length w < n ->
  k s' (pos + length w) cs = Some r -> star_fix (bm (BCls c)) true k n (w ++ s') pos cs = Some r.
Proof.
  induction w as [|h t IH]; intros [|n] s' pos cs Hw Hs Hn Hk; cbn [length] in Hn; try lia.
  - rewrite Nat.add_0_r in Hk. cbn [app star_fix bm]. destruct s' as [|h t]; [exact Hk|]. cbn in Hs. rewrite Hs. exact Hk.
  - apply Forall_cons_iff in Hw as [Hh Ht]. cbn [app]. rewrite (star_fix_cls_step c true k n h (t ++ s') pos cs Hh).
    rewrite (IH n s' (S pos) cs Ht Hs); [reflexivity|lia|]. cbn [length] in Hk. rewrite Nat.add_succ_r in Hk. exact Hk.
Qed.

Lemma bm_cat_star_run c b w s' pos cs k r :
  Forall (fun x => cls_mem c x = true) w -> stops c s' -> bm b s' (pos + length w) cs k = Some r ->
  bm (BCat (BStar true (BCls c)) b) (w ++ s') pos cs k = Some r.
Proof.
  (* one unfolding of [bm], at [BCat]: [cbn [bm]] would go on into the star, which [bm_star_unfold] is to rewrite *)
  intros Hw Hs Hk. change (bm (BStar true (BCls c)) (w ++ s') pos cs (fun s0 p0 c0 => bm b s0 p0 c0 k) = Some r).
  rewrite bm_star_unfold. apply star_greedy_run; try assumption. rewrite app_length. lia.
Qed.
Lemma bm_cat_group_lazy id a b x pos cs k r :
  bm b x pos ((id, (pos, pos)) :: cs) k = Some r -> bm (BCat (BGroup id (BStar false a)) b) x pos cs k = Some r.
Proof.
  (* likewise, at [BCat] and then [BGroup] *)
  intro Hk. change (bm (BStar false a) x pos cs (fun s0 p0 c0 => bm b s0 p0 ((id, (pos, p0)) :: c0) k) = Some r).
  rewrite bm_star_unfold. cbn [star_fix]. rewrite Hk. reflexivity.
Qed.
Lemma bm_cat_cls c b h t pos cs k r : cls_mem c h = true -> bm b t (S pos) cs k = Some r -> bm (BCat (BCls c) b) (h :: t) pos cs k = Some r.
Proof. intros Hc Hk. cbn [bm]. rewrite Hc. exact Hk. Qed.
